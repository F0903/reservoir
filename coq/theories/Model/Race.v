(* C15 — data races.  A small machine in which threads take locks in read or
   write mode (sync.RWMutex; a sync.Mutex is always taken in write mode) and
   perform PLAIN (non-atomic) reads and writes of abstract memory locations.
   Atomic accesses, channel operations and everything else that is not a plain
   access or a lock operation is an [RStep].

   A RACE is a reachable state in which two different threads are both about to
   perform a plain access to the same location and at least one of them writes
   (the operational definition; for programs synchronising through locks its
   equivalence with the happens-before definition of the Go memory model is the
   classical lockset argument and is cited, not proved).

   Executable definitions only; the soundness proof is Proofs/Discipline.v, of which the lockset theorem of Proofs/Race.v is an instance. *)
From Reservoir Require Import Base.Prelude Model.Sync.
From Coq Require Import Arith PeanoNat.

Inductive mode := MR | MW.
Definition mode_eqb (a b : mode) : bool :=
  match a, b with MR, MR | MW, MW => true | _, _ => false end.

Definition loc := nat.

Inductive rprog :=
| RDone
| RAcq (l : lock) (m : mode) (k : rprog)
| RRel (l : lock) (m : mode) (k : rprog)
| RTry (l : lock) (m : mode) (kok kfail : rprog)
| RChoice (a b : rprog)
| RAcc (x : loc) (w : bool) (k : rprog)
| RStep (k : rprog).

Definition hl := (lock * mode)%type.
Definition hl_eqb (a b : hl) : bool := lock_eqb (fst a) (fst b) && mode_eqb (snd a) (snd b).

Record rthread := { rheld : list hl; rcode : rprog }.
Definition rsys := list rthread.

Fixpoint hmem (x : hl) (h : list hl) : bool :=
  match h with [] => false | y :: r => hl_eqb x y || hmem x r end.

Fixpoint hremove1 (x : hl) (h : list hl) : list hl :=
  match h with
  | [] => []
  | y :: r => if hl_eqb x y then r else y :: hremove1 x r
  end.

(* somebody holds l in mode m / in any mode *)
Definition holds_mode (t : rthread) (l : lock) (m : mode) : bool := hmem (l, m) (rheld t).
Definition holds_any (t : rthread) (l : lock) : bool := holds_mode t l MR || holds_mode t l MW.

(* A write lock needs the lock entirely free, a read lock only needs no writer.
   (Go additionally makes new readers wait behind a waiting writer; that only
   removes behaviours and cannot create a race.) *)
Definition can_acq (s : rsys) (l : lock) (m : mode) : bool :=
  match m with
  | MW => forallb (fun t => negb (holds_any t l)) s
  | MR => forallb (fun t => negb (holds_mode t l MW)) s
  end.

Definition rthread_step (s : rsys) (t : rthread) (choice : bool) : option rthread :=
  match rcode t with
  | RDone => None
  | RAcq l m k => if can_acq s l m then Some {| rheld := (l, m) :: rheld t; rcode := k |} else None
  | RRel l m k => if hmem (l, m) (rheld t) then Some {| rheld := hremove1 (l, m) (rheld t); rcode := k |} else None
  | RTry l m kok kfail =>
      if can_acq s l m then Some {| rheld := (l, m) :: rheld t; rcode := kok |}
      else Some {| rheld := rheld t; rcode := kfail |}
  | RChoice a b => Some {| rheld := rheld t; rcode := if choice then a else b |}
  | RAcc _ _ k => Some {| rheld := rheld t; rcode := k |}
  | RStep k => Some {| rheld := rheld t; rcode := k |}
  end.

Definition rsys_step (s : rsys) (i : nat) (choice : bool) : option rsys :=
  match nth_error s i with
  | None => None
  | Some t =>
      match rthread_step s t choice with
      | None => None
      | Some t' => Some (upd_nth i t' s)
      end
  end.

Fixpoint rrun (s : rsys) (sched : list (nat * bool)) : option rsys :=
  match sched with
  | [] => Some s
  | (i, c) :: r => match rsys_step s i c with None => None | Some s' => rrun s' r end
  end.

Definition rspawn (ps : list rprog) : rsys := map (fun p => {| rheld := []; rcode := p |}) ps.

(* the pending plain access of a thread *)
Definition pending (t : rthread) : option (loc * bool) :=
  match rcode t with RAcc x w _ => Some (x, w) | _ => None end.

Definition conflict (a b : option (loc * bool)) : bool :=
  match a, b with
  | Some (x, w1), Some (y, w2) => Nat.eqb x y && (w1 || w2)
  | _, _ => false
  end.

(* executable race detector on a state: some pair of distinct threads conflicts *)
Fixpoint race_with (t : rthread) (r : list rthread) : bool :=
  match r with [] => false | u :: r' => conflict (pending t) (pending u) || race_with t r' end.
Fixpoint has_race (s : rsys) : bool :=
  match s with [] => false | t :: r => race_with t r || has_race r end.

(* Lockset discipline: [G x] is the lock guarding location x.  Every plain read
   of x happens while holding G x (in any mode), every plain write while holding
   it in write mode.  A location without a guard must not be accessed plainly
   by a shared operation at all. *)
Fixpoint guarded (G : loc -> option lock) (h : list hl) (p : rprog) : bool :=
  match p with
  | RDone => true
  | RAcq l m k => guarded G ((l, m) :: h) k
  | RRel l m k => hmem (l, m) h && guarded G (hremove1 (l, m) h) k
  | RTry l m kok kfail => guarded G ((l, m) :: h) kok && guarded G h kfail
  | RChoice a b => guarded G h a && guarded G h b
  | RAcc x w k =>
      match G x with
      | None => false
      | Some g => (if w then hmem (g, MW) h else hmem (g, MR) h || hmem (g, MW) h) && guarded G h k
      end
  | RStep k => guarded G h k
  end.

(* The accesses of a program that break the discipline: (location, is-write). *)
Fixpoint unguarded (G : loc -> option lock) (h : list hl) (p : rprog) : list (loc * bool) :=
  match p with
  | RDone => []
  | RAcq l m k => unguarded G ((l, m) :: h) k
  | RRel l m k => unguarded G (hremove1 (l, m) h) k
  | RTry l m kok kfail => unguarded G ((l, m) :: h) kok ++ unguarded G h kfail
  | RChoice a b => unguarded G h a ++ unguarded G h b
  | RAcc x w k =>
      (match G x with
       | None => [(x, w)]
       | Some g => if (if w then hmem (g, MW) h else hmem (g, MR) h || hmem (g, MW) h) then [] else [(x, w)]
       end) ++ unguarded G h k
  | RStep k => unguarded G h k
  end.
