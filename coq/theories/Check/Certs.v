(* Decidable checkers for the C11 case files (harness/cmd/certs). One case = one history
   against one fresh PrivateCA: sequential calls, clock advances (realised by the ageing hook)
   and bursts of concurrent calls for one target. *)
From Reservoir Require Import Base.Prelude Model.Certs.

(* what the harness saw for one GetCertForHost call *)
Inductive cobs :=
| OErr
| OCert (id : Z) (dns : list str) (ips : list str) (nb na : Z) (verify_ok key_ok : bool).

(* the harness's own classification of the target (net/netip and an own parser) *)
Inductive refkind :=
| RDns (name : str)                (* name:port, name an LDH host name *)
| RIp (text : str) (canon : str)   (* v4:port or [v6]:port; canonical address text *)
| ROther.                          (* anything else: the property demands nothing *)

Inductive cop :=
| CGet (hp : str) (r : refkind) (o : cobs)
| CAdv (d : Z)
| CPar (hp : str) (r : refkind) (os : list cobs) (final : option Z).  (* concurrent calls; then the cached identity *)

Inductive cert_case := CH (ipt : list (str * option str)) (ops : list cop).

Fixpoint assoc (tbl : list (str * option str)) (h : str) : option str :=
  match tbl with
  | [] => None
  | (k, v) :: r => if str_eqb k h then v else assoc r h
  end.

Definition TOL : Z := 3.       (* seconds: truncation of X.509 instants + real time spent inside a history *)
Definition near (a b : Z) : bool := (a - TOL <=? b) && (b <=? a + TOL).

Definition strs_eqb (a b : list str) : bool := list_eqb str_eqb a b.

(* ---------- model side ---------- *)

Definition obs_matches (c : cert) (o : cobs) : bool :=
  match o with
  | OErr => false
  | OCert id dns ips nb na _ _ =>
      (id =? c_id c) &&
      match c_san c with
      | SanDNS n => strs_eqb dns [n] && strs_eqb ips []
      | SanIP a => strs_eqb dns [] && strs_eqb ips [a]
      end && near (c_nb c) nb && near (c_na c) na
  end.

Definition res_matches (r : res cert) (o : cobs) : bool :=
  match r, o with
  | Ok c, _ => obs_matches c o
  | Err, OErr => true
  | _, _ => false
  end.

Definition obs_id (o : cobs) : option Z := match o with OCert id _ _ _ _ _ _ => Some id | OErr => None end.

Fixpoint max_id (os : list cobs) (acc : Z) : Z :=
  match os with
  | [] => acc
  | o :: r => max_id r (match obs_id o with Some i => Z.max acc i | None => acc end)
  end.

Definition mem_z (x : Z) (l : list Z) : bool := existsb (Z.eqb x) l.

(* The outcomes the LTS of Model/Certs.v allows for a burst of concurrent calls for one target
   at one instant (Properties/C11.v, C11_concurrent_issuance): a valid cached certificate is returned to
   everybody; otherwise everybody gets a newly issued certificate for the host (identities not
   used before) and the cache ends with one of them. *)
Definition par_model (pip : str -> option str) (s : state) (hp : str) (os : list cobs) (final : option Z)
  : option state :=
  match split_host_port hp with
  | None => if forallb (fun o => match o with OErr => true | _ => false end) os then Some s else None
  | Some (h, _) =>
      let fresh (m : cache) :=
        if creatable pip h then
          let ok := forallb (fun o => match obs_id o with
                                      | Some i => (s_next s <=? i) && obs_matches (mk_cert pip i h (s_now s)) o
                                      | None => false end) os in
          match final with
          | Some f =>
              if ok && existsb (fun o => match obs_id o with Some i => i =? f | None => false end) os
              then Some {| s_now := s_now s; s_cache := set h (mk_cert pip f h (s_now s)) m;
                           s_next := max_id os (s_next s - 1) + 1 |}
              else None
          | None => None
          end
        else if forallb (fun o => match o with OErr => true | _ => false end) os
             then match final with None => Some {| s_now := s_now s; s_cache := m; s_next := s_next s |} | _ => None end
             else None in
      match lookup h (s_cache s) with
      | Some c =>
          if expired (s_now s) c then fresh (remove h (s_cache s))
          else if forallb (obs_matches c) os && opt_eqb Z.eqb final (Some (c_id c)) then Some s else None
      | None => fresh (s_cache s)
      end
  end.

(* run the model along the history; None as soon as an observation differs *)
Fixpoint model_ok (pip : str -> option str) (s : state) (ops : list cop) : bool :=
  match ops with
  | [] => true
  | CGet hp _ o :: r =>
      let '(s', res) := get_cert pip hp s in
      res_matches res o && model_ok pip s' r
  | CAdv d :: r => model_ok pip (advance d s) r
  | CPar hp _ os final :: r =>
      match par_model pip s hp os final with
      | Some s' => model_ok pip s' r
      | None => false
      end
  end.

Definition cc_mismatch (c : cert_case) : bool :=
  let '(CH ipt ops) := c in negb (model_ok (assoc ipt) init ops).

(* ---------- the property, on the observations only (no call of the model) ---------- *)

Definition MARGIN : Z := 5.

Definition names_exactly (r : refkind) (dns ips : list str) : bool :=
  match r with
  | RDns n => match dns, ips with
              | [d], [] => str_eqb (lower_str d) (lower_str n)
              | _, _ => false
              end
  | RIp _ a => strs_eqb dns [] && strs_eqb ips [a]
  | ROther => true
  end.

Definition ref_key (r : refkind) : option str :=
  match r with RDns n => Some n | RIp t _ => Some t | ROther => None end.

(* what the checker remembers: per host text the last certificate handed out (identity, NotAfter) *)
Record pstate := { p_now : Z; p_last : list (str * (Z * Z)) }.

Fixpoint plookup (h : str) (m : list (str * (Z * Z))) : option (Z * Z) :=
  match m with
  | [] => None
  | (k, v) :: r => if str_eqb k h then Some v else plookup h r
  end.

(* one certificate presented for a target that the property covers *)
Definition cert_ok (now : Z) (r : refkind) (o : cobs) : bool :=
  match o with
  | OErr => false                                        (* every CONNECT target gets a certificate *)
  | OCert _ dns ips nb na v k =>
      names_exactly r dns ips && (nb - TOL <=? now) && (now <=? na + TOL) && v && k
  end.

(* reuse while valid / replacement once expired, against the last certificate of this host *)
Definition reuse_ok (ps : pstate) (key : str) (id : Z) : bool :=
  match plookup key (p_last ps) with
  | Some (id0, na0) =>
      if p_now ps + MARGIN <=? na0 then id =? id0              (* reused while valid *)
      else if na0 + MARGIN <=? p_now ps then negb (id =? id0)  (* replaced once expired *)
      else true
  | None => true
  end.

Fixpoint prop_ok (ps : pstate) (ops : list cop) : bool :=
  match ops with
  | [] => true
  | CAdv d :: rest => prop_ok {| p_now := p_now ps + Z.max 0 d; p_last := p_last ps |} rest
  | CGet hp r o :: rest =>
      match ref_key r with
      | None => prop_ok ps rest     (* outside the statement *)
      | Some key =>
          cert_ok (p_now ps) r o &&
          match o with
          | OCert id _ _ _ na _ _ =>
              reuse_ok ps key id &&
              prop_ok {| p_now := p_now ps; p_last := (key, (id, na)) :: p_last ps |} rest
          | OErr => false
          end
      end
  | CPar hp r os final :: rest =>
      let ids := flat_map (fun o => match obs_id o with Some i => [i] | None => [] end) os in
      match ref_key r with
      | None => prop_ok ps rest
      | Some key =>
          forallb (cert_ok (p_now ps) r) os &&
          forallb (fun o => match obs_id o with Some i => reuse_ok ps key i | None => false end) os &&
          match final with
          | Some f =>
              mem_z f ids &&       (* the cache ends holding one of the certificates handed out *)
              let na := fold_left (fun acc o => match o with
                                                | OCert i _ _ _ na _ _ => if i =? f then na else acc
                                                | OErr => acc end) os 0 in
              prop_ok {| p_now := p_now ps; p_last := (key, (f, na)) :: p_last ps |} rest
          | None => false
          end
      end
  end.

Definition cc_propfail (c : cert_case) : bool :=
  let '(CH _ ops) := c in negb (prop_ok {| p_now := 0; p_last := [] |} ops).

(* coverage: which branches of the model the history reached (bit mask) *)
Fixpoint branches (pip : str -> option str) (s : state) (ops : list cop) (acc : Z) : Z :=
  match ops with
  | [] => acc
  | CGet hp _ _ :: r =>
      let b := match split_host_port hp with
               | None => 8
               | Some (h, _) =>
                   match lookup h (s_cache s) with
                   | Some c => if expired (s_now s) c then 4 else 2
                   | None => if creatable pip h then 1 else 16
                   end
               end in
      branches pip (fst (get_cert pip hp s)) r (Z.lor acc b)
  | CAdv d :: r => branches pip (advance d s) r acc
  | CPar hp _ os final :: r =>
      match par_model pip s hp os final with
      | Some s' => branches pip s' r (Z.lor acc 32)
      | None => Z.lor acc 64
      end
  end.

Definition cc_tag (c : cert_case) : Z :=
  let '(CH ipt ops) := c in branches (assoc ipt) init ops 0.

Definition check_certs (cases : list cert_case) : report :=
  mk_report cc_mismatch cc_propfail cc_tag cases.
