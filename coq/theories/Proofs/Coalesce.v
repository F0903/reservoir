(* Proofs about the coalescing transition system (Model/Coalesce.v).
   Every statement quantifies over arbitrary action lists, i.e. over every
   interleaving of the atomic steps, any number of clients.

   [lts_step] is analysed once, into what a step does to one client ([cmove], [ph_step]) and what
   it does to the shared part of the state ([gmove], [shared_step]); the invariants are proved
   through these two views. *)
From Reservoir Require Import Base.Prelude Model.Coalesce.

Lemma upd_same f c p : upd f c p c = p.
Proof. unfold upd. now rewrite Z.eqb_refl. Qed.

Lemma upd_other f c p c' : c' <> c -> upd f c p c' = f c'.
Proof. unfold upd. intros H. destruct (c' =? c) eqn:E; [apply Z.eqb_eq in E; contradiction|reflexivity]. Qed.

Lemma run_app s tr1 tr2 :
  run s (tr1 ++ tr2) = match run s tr1 with Some s1 => run s1 tr2 | None => None end.
Proof.
  revert s; induction tr1 as [|a tr1 IH]; intros s; cbn [run app]; [reflexivity|].
  destruct (lts_step s a); [apply IH|reflexivity].
Qed.

Lemma run_invariant (P : state -> Prop) (ok : action -> bool) :
  (forall s a s', P s -> ok a = true -> lts_step s a = Some s' -> P s') ->
  forall tr s s', P s -> forallb ok tr = true -> run s tr = Some s' -> P s'.
Proof.
  intros Hstep tr; induction tr as [|a tr IH]; cbn; intros s s' HP Hok Hrun.
  - now injection Hrun as <-.
  - apply andb_true_iff in Hok as [Ha Hok].
    destruct (lts_step s a) as [s1|] eqn:E; [|discriminate].
    exact (IH s1 s' (Hstep s a s1 HP Ha E) Hok Hrun).
Qed.

Lemma run_invariant_all (P : state -> Prop) :
  (forall s a s', P s -> lts_step s a = Some s' -> P s') ->
  forall tr s s', P s -> run s tr = Some s' -> P s'.
Proof.
  intros Hstep tr s s' HP. apply (run_invariant P (fun _ => true)); [|exact HP|now induction tr].
  intros s0 a s1 H0 _. exact (Hstep s0 a s1 H0).
Qed.

Definition stage_of (s : state) : option stage := option_map fl_stage (flight_ s).

Lemma stage_of_eq s f : flight_ s = Some f -> stage_of s = Some (fl_stage f).
Proof. unfold stage_of. now intros ->. Qed.

(* the answer a client has in hand: delivered, about to be written, or the stored version it is
   about to open *)
Definition holding (p : phase) : option resp :=
  match p with
  | Post (PCached v _) => Some (RStored v)
  | Post (PHave r) | Done r => Some r
  | _ => None
  end.

Lemma done_holding s c r : ph s c = Done r -> holding (ph s c) = Some r.
Proof. now intros ->. Qed.

(* [cmove s c a p p']: the step [a] from [s] may take client [c] from phase [p] to [p'] *)
Inductive cmove (s : state) (c : client) : action -> phase -> phase -> Prop :=
| MStay a p : cmove s c a p p
| MArrive : cmove s c (Arrive c) Idle InFlight
| MReturn r sh : stage_of s = Some (SResult r) -> cmove s c FlightReturn InFlight (after_do r sh)
| MReGet v w b : cache s = Some (w, b) ->
    cmove s c (FollowerReGet c) (Post (PCached v true)) (Post (PHave (RStored w)))
| MMiss v : cache s = None -> cmove s c (FollowerReGet c) (Post (PCached v true)) (Post PDirect)
| MFallback k :
    cmove s c (FollowerFallback c k) (Post PDirect) (Post (PHave (RPrivate k (origin_count s + 1))))
| MRespond p r : holding p = Some r -> cmove s c (Respond c) p (Done r)
| MGone p : cmove s c (Disconnect c) p Gone.

(* the state without the clients, the flight reduced to its stage *)
Record shared := Sh { sh_stage : option stage; sh_cache : option (Z * bool); sh_sent : Z; sh_cond : Z;
                      sh_stored : list Z }.

Definition shared_of (s : state) : shared :=
  Sh (stage_of s) (cache s) (origin_count s) (cond_count s) (stored s).
Arguments shared_of s /.

(* the transition system the shared part follows on its own *)
Inductive gmove : action -> shared -> shared -> Prop :=
| GStay a g : gmove a g g
| GStart c ch n m l : gmove (Arrive c) (Sh None ch n m l) (Sh (Some SLookup) ch n m l)
| GHit v n m l :
    gmove LeaderLookup (Sh (Some SLookup) (Some (v, true)) n m l)
      (Sh (Some (SResult (FCached v))) (Some (v, true)) n m l)
| GRevalidate v n m l :
    gmove LeaderLookup (Sh (Some SLookup) (Some (v, false)) n m l)
      (Sh (Some (SWait (n + 1) true)) (Some (v, false)) (n + 1) (m + 1) l)
| GFetch n m l :
    gmove LeaderLookup (Sh (Some SLookup) None n m l) (Sh (Some (SWait (n + 1) false)) None (n + 1) m l)
| GAnswer i cond k ch n m l : (k = KNotModified -> cond = true) ->
    gmove (OriginAnswer k) (Sh (Some (SWait i cond)) ch n m l) (Sh (Some (SAnswered i k)) ch n m l)
| GStore i ch n m l :
    gmove LeaderStore (Sh (Some (SAnswered i KCacheable)) ch n m l)
      (Sh (Some (SResult (FCached i))) (Some (i, true)) n m (i :: l))
| GRefresh i v b n m l :
    gmove LeaderStore (Sh (Some (SAnswered i KNotModified)) (Some (v, b)) n m l)
      (Sh (Some (SResult (FCached v))) (Some (v, true)) n m l)
| GDrop i k ch n m l : k <> KCacheable -> (k = KNotModified -> ch = None) ->
    gmove LeaderStore (Sh (Some (SAnswered i k)) ch n m l) (Sh (Some (SResult FNotCacheable)) ch n m l)
| GReturn r ch n m l : gmove FlightReturn (Sh (Some (SResult r)) ch n m l) (Sh None ch n m l)
| GFallback c k st ch n m l : gmove (FollowerFallback c k) (Sh st ch n m l) (Sh st ch (n + 1) m l)
| GEvict st ch n m l : gmove Evict (Sh st ch n m l) (Sh st None n m l).

(* For a goal [match lts_step s a with Some t => P t | None => True end]: one goal [P t] for
   each way the step can succeed, the tests that led there recorded as equations. *)
Ltac scrutinee t := lazymatch t with match ?x with _ => _ end => scrutinee x | _ => t end.
Ltac step_tests :=
  repeat (cbv beta iota zeta;
          lazymatch goal with
          | |- match ?x with _ => _ end => let y := scrutinee x in destruct y eqn:?
          end);
  try exact I.
Ltac step_cases a := destruct a; cbn [lts_step ph flight_ cache]; step_tests.

Lemma step_some (P : state -> Prop) s a s' :
  match lts_step s a with Some t => P t | None => True end -> lts_step s a = Some s' -> P s'.
Proof. intros H E. now rewrite E in H. Qed.

Lemma cmove_upd s a c c0 p p' :
  ph s c0 = p -> cmove s c0 a p p' -> cmove s c a (ph s c) (upd (ph s) c0 p' c).
Proof.
  intros <- M. unfold upd. destruct (c =? c0) eqn:E; [|apply MStay].
  apply Z.eqb_eq in E. now subst c0.
Qed.

Lemma ph_step s a s' c : lts_step s a = Some s' -> cmove s c a (ph s c) (ph s' c).
Proof.
  apply (step_some (fun t => cmove s c a (ph s c) (ph t c))).
  step_cases a; cbn [ph set_ph set_flight set_stage]; try apply MStay.
  (* the steps that update the phase of one client *)
  all: try (eapply cmove_upd; [eassumption|econstructor; eassumption || reflexivity]).
  (* left: FlightReturn, which moves every client inside Do at once *)
  destruct (ph s c); try apply MStay.
  apply MReturn. erewrite stage_of_eq by eassumption. congruence.
Qed.

Lemma shared_step s a s' : lts_step s a = Some s' -> gmove a (shared_of s) (shared_of s').
Proof.
  apply (step_some (fun t => gmove a (shared_of s) (shared_of t))).
  destruct s as [p fl ch n m l e]. unfold shared_of, stage_of, option_map.
  step_cases a; cbn; constructor; congruence.
Qed.

(* the one thing about a fallback that neither view says: it takes a client that is about to
   fetch for itself, and a fresh request number *)
Lemma fallback_step s c k s' :
  lts_step s (FollowerFallback c k) = Some s' ->
  ph s c = Post PDirect /\ origin_count s' = origin_count s + 1.
Proof.
  cbn. destruct (ph s c) as [| |[]| |]; try discriminate. destruct k; intros [= <-]; auto.
Qed.

(* Most invariants below are a condition [G] on the shared part and a condition [C] on every client's
   phase that may refer to the shared part.  A step keeps such an invariant if the move of the
   shared part keeps [G] and leaves [C] standing, and the move of each client keeps [C]. *)
Definition inv (C : shared -> phase -> Prop) (G : shared -> Prop) (s : state) : Prop :=
  (forall c, C (shared_of s) (ph s c)) /\ G (shared_of s).

Lemma inv_step (C : shared -> phase -> Prop) (G : shared -> Prop) s a s' :
  (forall g g', gmove a g g' -> G g -> G g' /\ forall p, C g p -> C g' p) ->
  (forall c p p', cmove s c a p p' -> G (shared_of s) -> C (shared_of s) p -> C (shared_of s) p') ->
  inv C G s -> lts_step s a = Some s' -> inv C G s'.
Proof.
  intros HG HC (Hcl & Hg) Hstep.
  destruct (HG _ _ (shared_step s a s' Hstep) Hg) as (Hg' & Hkeep).
  split; [|exact Hg']. intros c. apply Hkeep, (HC c _ _ (ph_step s a s' c Hstep) Hg), Hcl.
Qed.

(* Provenance of every answer, in every trace: a cached answer is a version that was stored
   completely (never the reader of an in-flight body), and nobody is ever handed the proxy's own
   error: the shared fetch has no stage that produces one. *)

(* where an answer in hand comes from *)
Lemma holding_move s c a p p' r :
  cmove s c a p p' -> holding p' = Some r ->
  holding p = Some r \/
  match r with
  | RStored v =>
      stage_of s = Some (SResult (FCached v)) \/
      exists v0 b, holding p = Some (RStored v0) /\ cache s = Some (v, b)
  | RPrivate k n => a = FollowerFallback c k /\ n = origin_count s + 1
  | RError => stage_of s = Some (SResult FError)
  end.
Proof.
  destruct 1 as [| |[]| | | | |]; cbn; try discriminate; auto; intros [= <-]; auto.
  eauto 6.
Qed.

Definition prov_ph (g : shared) (p : phase) : Prop :=
  forall r, holding p = Some r ->
  match r with RStored v => In v (sh_stored g) | RPrivate _ _ => True | RError => False end.

Definition prov_shared (g : shared) : Prop :=
  (forall v b, sh_cache g = Some (v, b) -> In v (sh_stored g)) /\
  match sh_stage g with
  | Some (SResult (FCached v)) => In v (sh_stored g)
  | Some (SResult FError) => False
  | _ => True
  end.

Definition prov_inv : state -> Prop := inv prov_ph prov_shared.

Lemma prov_shared_move a g g' :
  gmove a g g' -> prov_shared g -> prov_shared g' /\ forall p, prov_ph g p -> prov_ph g' p.
Proof.
  unfold prov_shared, prov_ph.
  destruct 1; cbn; intros [Hc Hs]; auto; (split; [split|]); cbn; eauto; try easy.
  - (* a store: the entry is the version just stored, *)
    intros ? ? [= <- _]. auto.
  - (* and whatever was stored still is *)
    intros p Hp r Hr. specialize (Hp r Hr). destruct r; auto.
  - (* a refresh keeps the entry's version *)
    intros ? ? [= <- _]. eauto.
Qed.

Lemma prov_move s a c p p' :
  cmove s c a p p' -> prov_shared (shared_of s) -> prov_ph (shared_of s) p -> prov_ph (shared_of s) p'.
Proof.
  intros M [Hc Hs] Hp r Hr. cbn in *.
  destruct (holding_move s c a p p' r M Hr) as [H|H]; [exact (Hp r H)|].
  destruct r as [v|k n|]; [destruct H as [H|(_ & b & _ & H)]|exact I|]; eauto; now rewrite H in Hs.
Qed.

Lemma prov_inv_run ks tr s : run (init ks) tr = Some s -> prov_inv s.
Proof.
  apply (run_invariant_all prov_inv).
  - intros s0 a s1. exact (inv_step _ _ s0 a s1 (prov_shared_move a) (prov_move s0 a)).
  - split; [discriminate|]. split; [|exact I]. destruct ks; cbn; intros v b [= <- _]; auto.
Qed.

(* C09 over the coalescing system: the shared fetch does not fail for cache reasons (an entry that
   vanished under its revalidation and a store that failed with the body both take the
   ErrNotCacheable route), so no client ever receives the proxy's own error, whoever hangs up and
   whenever the entry is evicted. *)
Theorem never_error ks tr s : run (init ks) tr = Some s -> forall c, ph s c <> Done RError.
Proof.
  intros Hrun c E. destruct (prov_inv_run ks tr s Hrun) as [Hcl _]. exact (Hcl c _ (done_holding s c _ E)).
Qed.

(* Private copies.  Origin requests are numbered as they are sent.  A number belongs to the client
   that holds the answer as its own copy, or to the proxy: the running flight's request, later a
   stored version.  Every number in use is at most [origin_count], a new one is [origin_count]
   just incremented, so nothing is ever owned twice. *)

Lemma private_run c k n : forall tr s s',
  run s tr = Some s' -> holding (ph s' c) = Some (RPrivate k n) ->
  holding (ph s c) = Some (RPrivate k n) \/ In (FollowerFallback c k) tr.
Proof.
  induction tr as [|a tr IH]; cbn; intros s s' Hrun Hp.
  - injection Hrun as <-. auto.
  - destruct (lts_step s a) as [s1|] eqn:E; [|discriminate].
    destruct (IH s1 s' Hrun Hp) as [H|H]; [|auto].
    destruct (holding_move s c a _ _ _ (ph_step s a s1 c E) H) as [|[-> _]]; auto.
Qed.

Definition in_use (g : shared) (n : Z) : Prop :=
  In n (sh_stored g) \/
  match sh_stage g with Some (SWait i _) | Some (SAnswered i _) => i = n | _ => False end.

Lemma in_use_move a g g' :
  gmove a g g' ->
  sh_sent g <= sh_sent g' /\
  forall n, in_use g' n -> in_use g n \/ n = sh_sent g' /\ sh_sent g < n /\ a = LeaderLookup.
Proof.
  unfold in_use.
  destruct 1; cbn; (split; [lia|]); intros ? [Hi|Hi]; try contradiction; auto.
  all: try (right; repeat split; lia).
  (* a store: the flight's number becomes a stored version *)
  destruct Hi as [<-|Hi]; auto.
Qed.

Definition owns (s : state) (o : option client) (n : Z) : Prop :=
  match o with
  | Some c => exists k, holding (ph s c) = Some (RPrivate k n)
  | None => in_use (shared_of s) n
  end.

Lemma owns_step s a s' :
  lts_step s a = Some s' ->
  origin_count s <= origin_count s' /\
  exists o0, forall o n, owns s' o n ->
    owns s o n \/ o = o0 /\ n = origin_count s' /\ origin_count s < n.
Proof.
  intros Hstep. destruct (in_use_move a _ _ (shared_step s a s' Hstep)) as [Hle Hin].
  split; [exact Hle|]. exists (match a with FollowerFallback c _ => Some c | _ => None end).
  intros [c|] n; cbn [owns].
  - intros (k & H). destruct (holding_move s c a _ _ _ (ph_step s a s' c Hstep) H) as [|[-> ->]]; eauto.
    apply fallback_step in Hstep as [_ ->]. right. repeat split; lia.
  - intros H. destruct (Hin n H) as [|(-> & Hlt & ->)]; auto.
Qed.

Definition uniq_inv (s : state) : Prop :=
  0 <= origin_count s /\
  (forall o n, owns s o n -> (if o then 1 else 0) <= n <= origin_count s) /\
  (forall o1 o2 n, owns s o1 n -> owns s o2 n -> o1 = o2).

Lemma uniq_inv_step s a s' : uniq_inv s -> lts_step s a = Some s' -> uniq_inv s'.
Proof.
  intros (H0 & Hb & Hu) Hstep. destruct (owns_step s a s' Hstep) as [Hle (o0 & Hnew)].
  split; [lia|split].
  - intros o n H. destruct (Hnew o n H) as [Ho|(_ & -> & Hlt)]; [apply Hb in Ho|]; destruct o; lia.
  - intros o1 o2 n H1 H2.
    destruct (Hnew _ _ H1) as [O1|(E1 & N1 & L1)], (Hnew _ _ H2) as [O2|(E2 & N2 & L2)].
    + eauto.
    + apply Hb in O1. lia.
    + apply Hb in O2. lia.
    + congruence.
Qed.

Lemma owns_init ks o n : owns (init ks) o n -> o = None /\ n = 0.
Proof.
  destruct o as [c|]; cbn; [intros (k & [=])|]. unfold in_use; cbn. destruct ks; cbn; intuition.
Qed.

Lemma uniq_inv_run ks tr s : run (init ks) tr = Some s -> uniq_inv s.
Proof.
  apply (run_invariant_all uniq_inv uniq_inv_step).
  split; [reflexivity|]. split.
  - intros o n H. apply owns_init in H as [-> ->]. cbn. lia.
  - intros o1 o2 n H1 H2. apply owns_init in H1 as [-> _], H2 as [-> _]. reflexivity.
Qed.

(* when nothing the origin says is cacheable (and the key was not fresh), nothing is ever handed
   out from the cache *)
Definition unc_shared (g : shared) : Prop :=
  (forall v, sh_cache g <> Some (v, true)) /\
  match sh_stage g with
  | Some (SAnswered _ k) => kind_uncacheable k = true
  | Some (SResult (FCached _)) => False
  | _ => True
  end.

Definition unc_inv : state -> Prop := inv (fun _ p => forall v, holding p <> Some (RStored v)) unc_shared.

Lemma unc_shared_move a g g' :
  gmove a g g' -> uncacheable_ok a = true -> unc_shared g -> unc_shared g'.
Proof.
  unfold unc_shared.
  destruct 1; cbn; intros Hok [Hc Hs]; try discriminate; try (split; [easy|]); auto.
  (* a hit would need a fresh entry *)
  now destruct (Hc v).
Qed.

Lemma unc_move s a c p p' :
  cmove s c a p p' -> unc_shared (shared_of s) ->
  (forall v, holding p <> Some (RStored v)) -> forall v, holding p' <> Some (RStored v).
Proof.
  intros M [_ Hs] Hp v Hv. cbn in Hs.
  destruct (holding_move s c a p p' _ M Hv) as [H|[H|(v0 & _ & H & _)]];
    [now apply Hp in H|now rewrite H in Hs|now apply Hp in H].
Qed.

Lemma unc_inv_run ks tr s :
  ks <> Fresh -> forallb uncacheable_ok tr = true -> run (init ks) tr = Some s -> unc_inv s.
Proof.
  intros Hks. apply (run_invariant unc_inv uncacheable_ok).
  - intros s0 a s1 H Hok. refine (inv_step _ _ s0 a s1 _ (unc_move s0 a) H).
    intros g g' M Hg. split; [exact (unc_shared_move a g g' M Hok Hg)|auto].
  - split; [discriminate|]. split; [|exact I]. now destruct ks.
Qed.

Theorem private_copies : forall ks tr s,
  run (init ks) tr = Some s ->
  (forall c1 c2 k1 k2 n1 n2,
      ph s c1 = Done (RPrivate k1 n1) -> ph s c2 = Done (RPrivate k2 n2) -> c1 <> c2 -> n1 <> n2) /\
  (forall c k n, ph s c = Done (RPrivate k n) ->
      1 <= n <= origin_count s /\ ~ In n (stored s) /\ In (FollowerFallback c k) tr) /\
  (ks <> Fresh -> forallb uncacheable_ok tr = true ->
   forall c r, ph s c = Done r -> exists k n, r = RPrivate k n /\ kind_uncacheable k = true).
Proof.
  intros ks tr s Hrun.
  assert (Hown : forall c k n, ph s c = Done (RPrivate k n) ->
            owns s (Some c) n /\ In (FollowerFallback c k) tr).
  { intros c k n Hd. apply done_holding in Hd. split; [now exists k|].
    now destruct (private_run c k n tr (init ks) s Hrun Hd). }
  destruct (uniq_inv_run ks tr s Hrun) as (_ & Hb & Hu).
  split; [|split].
  - intros c1 c2 k1 k2 n1 n2 H1 H2 Hne <-. apply Hown in H1 as [H1 _], H2 as [H2 _].
    pose proof (Hu _ _ _ H1 H2). congruence.
  - intros c k n Hd. apply Hown in Hd as [Ho Hf]. split; [exact (Hb _ _ Ho)|]. split; [|exact Hf].
    intros Hi. discriminate (Hu _ None _ Ho (or_introl Hi)).
  - intros Hks Hok c [v|k n|] Hd.
    + destruct (unc_inv_run ks tr s Hks Hok Hrun) as [Hcl _]. now destruct (Hcl c v (done_holding s c _ Hd)).
    + exists k, n. split; [reflexivity|].
      exact (proj1 (forallb_forall _ _) Hok _ (proj2 (Hown c k n Hd))).
    + now apply (never_error ks tr s Hrun) in Hd.
Qed.

Theorem answer_provenance : forall ks tr s,
  run (init ks) tr = Some s ->
  forall c r, ph s c = Done r ->
    match r with
    | RStored v => In v (stored s)
    | RPrivate k n => In (FollowerFallback c k) tr /\ 1 <= n <= origin_count s
    | RError => 0 < faults s
    end.
Proof.
  intros ks tr s H c [v|k n|] Hd.
  - destruct (prov_inv_run ks tr s H) as (Hcl & _). exact (Hcl c _ (done_holding s c _ Hd)).
  - destruct (private_copies ks tr s H) as (_ & P & _). destruct (P c k n Hd) as (A & _ & B). auto.
  - now apply (never_error ks tr s H) in Hd.
Qed.

(* Single fetch.  While only storable answers come back and nothing is evicted,
   the key is in one of two global modes:
     unsettled  nobody has been answered yet; at most the one (conditional iff
                stale) upstream request of the running flight is out;
     settled v  version v is stored and fresh; every answer handed out or
                about to be handed out is the stored version v; the request
                counters have their final values. *)

Definition exp_origin (ks : key_state) : Z := match ks with Fresh => 0 | _ => 1 end.
Definition exp_cond (ks : key_state) : Z := match ks with Stale => 1 | _ => 0 end.

Definition settled (ks : key_state) (g : shared) (v : Z) : Prop :=
  sh_cache g = Some (v, true) /\ sh_sent g = exp_origin ks /\ sh_cond g = exp_cond ks.

Definition unsettled (ks : key_state) (g : shared) (sent : bool) : Prop :=
  ks <> Fresh /\ sh_cache g = init_cache ks /\
  sh_sent g = (if sent then 1 else 0) /\ sh_cond g = (if sent then exp_cond ks else 0).

Definition sf_shared (ks : key_state) (g : shared) : Prop :=
  match sh_stage g with
  | None | Some SLookup => (exists v, settled ks g v) \/ unsettled ks g false
  | Some (SWait _ _) => unsettled ks g true
  | Some (SAnswered _ k) => unsettled ks g true /\ storable_answer ks k = true
  | Some (SResult r) => exists v, r = FCached v /\ settled ks g v
  end.

(* whoever holds anything holds the fresh cached version, and nobody is about to fetch for itself *)
Definition clean (g : shared) (p : phase) : Prop :=
  match holding p with
  | Some (RStored v) => sh_cache g = Some (v, true)
  | Some _ => False
  | None => p <> Post PDirect
  end.

Definition sf_inv (ks : key_state) : state -> Prop := inv clean (sf_shared ks).

Lemma clean_settle g g' : (forall v, sh_cache g <> Some (v, true)) -> forall p, clean g p -> clean g' p.
Proof. intros H p. unfold clean. destruct (holding p) as [[v| |]|]; auto. intros E. now destruct (H v). Qed.

(* a fallback is excluded: it would be a second request *)
Lemma sf_shared_move ks a g g' :
  gmove a g g' -> single_fetch_ok ks a = true -> (forall c k, a <> FollowerFallback c k) ->
  sf_shared ks g -> sf_shared ks g' /\ forall p, clean g p -> clean g' p.
Proof.
  unfold sf_shared, settled, unsettled.
  destruct 1 as [| | | | | | | |? k ? ? ? ? Hk Hgone| | |]; cbn; intros Hok Hnf Hg; try discriminate Hok; auto.
  - (* hit: the entry is fresh, so the key is settled *)
    split; [|auto]. destruct Hg as [(v0 & [= <-] & Hn)|(Hks & Hc & _)]; [eauto|now destruct ks].
  - (* a stale entry: the key was Stale, the one request is conditional *)
    split; [|auto]. destruct Hg as [(v0 & [=] & _)|(Hks & Hc & -> & ->)]. now destruct ks.
  - (* no entry: the key was Cold *)
    split; [|auto]. destruct Hg as [(v0 & [=] & _)|(Hks & Hc & -> & ->)]. now destruct ks.
  - (* the answer is stored: settled from here on; nobody held anything before *)
    destruct Hg as ((Hks & Hc & -> & ->) & _).
    split; [exists i; now destruct ks|apply clean_settle; cbn; intros v ->; now destruct ks].
  - (* 304: the stale entry is fresh again *)
    destruct Hg as ((Hks & Hc & -> & ->) & _).
    split; [exists v; now destruct ks|apply clean_settle; cbn; intros v0 [= -> ->]; now destruct ks].
  - (* nothing is dropped: a storable answer is cacheable, or a 304 for the entry of a Stale key *)
    destruct Hg as ((Hks & Hc & _) & Hs). destruct k, ks; try discriminate; try contradiction.
    now rewrite Hgone in Hc.
  - destruct Hg as (v & _ & Hv). eauto.
  - now destruct (Hnf c k).
Qed.

Lemma clean_move ks s a c p p' :
  cmove s c a p p' -> sf_shared ks (shared_of s) -> clean (shared_of s) p -> clean (shared_of s) p'.
Proof.
  unfold sf_shared, clean.
  destruct 1 as [| |r sh Hr| | | |p r Hp|]; cbn; auto; try congruence.
  - rewrite Hr. intros (v & -> & Hc & _) _. exact Hc.
  - now rewrite Hp.
Qed.

Lemma sf_inv_run ks tr s :
  forallb (single_fetch_ok ks) tr = true -> run (init ks) tr = Some s -> sf_inv ks s.
Proof.
  apply (run_invariant (sf_inv ks) (single_fetch_ok ks)).
  - intros s0 a s1 H Hok Hstep. refine (inv_step _ _ s0 a s1 _ (clean_move ks s0 a) H Hstep).
    intros g g' M. apply (sf_shared_move ks a g g' M Hok).
    (* a fallback is not enabled: nobody is about to fetch for itself *)
    intros c k ->. apply fallback_step in Hstep as [E _]. destruct H as [Hcl _]. specialize (Hcl c). now rewrite E in Hcl.
  - split; [discriminate|]. unfold sf_shared, settled, unsettled.
    destruct ks; cbn; [right|left; exists 0|right]; repeat split; discriminate.
Qed.

Lemma sf_shared_counts ks g :
  sf_shared ks g -> sh_sent g <= 1 /\ forall v, sh_cache g = Some (v, true) -> settled ks g v.
Proof.
  intros H.
  assert (Hmode : (exists v, settled ks g v) \/ exists b, unsettled ks g b).
  { unfold sf_shared in H.
    destruct (sh_stage g) as [[| | |r]|]; [destruct H| |destruct H|destruct H as (v & _ & H)|destruct H]; eauto. }
  destruct Hmode as [(v & Hc & Hn & Hm)|(b & Hks & Hc & Hn & _)].
  - split; [rewrite Hn; destruct ks; cbn; lia|]. intros w E. rewrite E in Hc. injection Hc as <-. now split.
  - split; [rewrite Hn; destruct b; lia|]. intros v E. rewrite E in Hc. now destruct ks.
Qed.

Theorem single_fetch : forall ks tr s,
  run (init ks) tr = Some s ->
  forallb (single_fetch_ok ks) tr = true ->
  origin_count s <= 1 /\
  forall c r, ph s c = Done r ->
    exists v, r = RStored v /\ cache s = Some (v, true) /\ In v (stored s) /\
      origin_count s = (match ks with Fresh => 0 | _ => 1 end) /\
      cond_count s = (match ks with Stale => 1 | _ => 0 end).
Proof.
  intros ks tr s Hrun Hok.
  destruct (sf_inv_run ks tr s Hok Hrun) as (Hcl & Hg). destruct (prov_inv_run ks tr s Hrun) as (_ & Hst & _).
  destruct (sf_shared_counts ks _ Hg) as [Hle Hfresh].
  split; [exact Hle|]. intros c r E. specialize (Hcl c). rewrite E in Hcl.
  destruct r as [v| |]; try contradiction. destruct (Hfresh v Hcl) as (_ & Hn & Hm).
  exists v. repeat split; auto. exact (Hst v true Hcl).
Qed.

(* Everyone is answered, completely: as long as the origin completes every body it starts,
   nobody ever receives a cut body - what a client gets is the stored version or the answer to a
   request of its own, and the proxy's own error is never handed out.  Of [fault_free] only this
   half is used; evictions and 304s do not matter. *)

Theorem answers_complete_no_abort ks tr s :
  run (init ks) tr = Some s -> forallb no_abort tr = true ->
  forall c r, ph s c = Done r -> complete r = true.
Proof.
  intros Hrun Hna c [v|k n|] Hd.
  - reflexivity.
  - destruct (private_run c k n tr (init ks) s Hrun (done_holding s c _ Hd)) as [H|H]; [discriminate|].
    exact (proj1 (forallb_forall _ _) Hna _ H).
  - now apply (never_error ks tr s Hrun) in Hd.
Qed.

(* Under both halves of [fault_free] completeness is a step invariant that also says where the
   flight stands.  The second half keeps the entry from being removed under a pending revalidation -
   nothing is evicted (ne = true), or no 304 is ever answered (ne = false) - so a revalidation
   always finds its entry; and the flight's result is never the error. *)

Definition good_ph (p : phase) : Prop :=
  match p with
  | Post (PHave r) | Done r => complete r = true
  | _ => True
  end.

Definition ff_inv (ne : bool) (s : state) : Prop :=
  (forall c, good_ph (ph s c)) /\
  match stage_of s with
  | Some (SWait _ true) => ne = true -> cache s <> None
  | Some (SAnswered _ k) =>
      kind_complete k = true /\ (k = KNotModified -> ne = true /\ cache s <> None)
  | Some (SResult FError) => False
  | _ => True
  end.

Definition ff_ok (ne : bool) (a : action) : bool :=
  no_abort a && (if ne then negb (is_evict a) else negb (is_304 a)).

Definition ff_shared (ne : bool) (g : shared) : Prop :=
  match sh_stage g with
  | Some (SWait _ true) => ne = true -> sh_cache g <> None
  | Some (SAnswered _ k) =>
      kind_complete k = true /\ (k = KNotModified -> ne = true /\ sh_cache g <> None)
  | Some (SResult FError) => False
  | _ => True
  end.

Lemma ff_shared_move ne a g g' :
  gmove a g g' -> ff_ok ne a = true -> ff_shared ne g -> ff_shared ne g'.
Proof.
  unfold ff_shared, ff_ok.
  destruct 1 as [| | | | |? ? ? ? ? ? ? Hcond| | | | | |]; cbn; auto; try discriminate.
  - (* a 304 answers a conditional request, whose entry is still there while nothing is evicted *)
    intros Hok Hg. apply andb_true_iff in Hok as [Hk Hne]. split; [exact Hk|].
    intros ->. destruct ne; [|discriminate]. rewrite Hcond in Hg by reflexivity. auto.
  - (* an eviction: only where no 304 is ever answered *)
    destruct ne; [discriminate|]. intros _.
    destruct st as [[| ? []| ? k|]|]; auto; [discriminate|].
    intros (Hk & Hg). split; [exact Hk|]. intros E. now destruct (Hg E).
Qed.

Lemma good_move ne s a c p p' :
  cmove s c a p p' -> ff_ok ne a = true -> ff_shared ne (shared_of s) -> good_ph p -> good_ph p'.
Proof.
  unfold ff_shared, ff_ok.
  destruct 1 as [| |[] ? Hr| | |k|p r Hp|]; cbn; auto.
  - now rewrite Hr.
  - intros Hok _ _. now apply andb_true_iff in Hok.
  - intros _ _. destruct p as [| |[]| |]; try discriminate; injection Hp as <-; auto.
Qed.

Lemma ff_inv_step ne s a s' :
  ff_inv ne s -> ff_ok ne a = true -> lts_step s a = Some s' -> ff_inv ne s'.
Proof.
  (* [ff_inv ne] is [inv (fun _ => good_ph) (ff_shared ne)] written out: the two are convertible *)
  intros H Hok. refine (inv_step (fun _ => good_ph) (ff_shared ne) s a s' _ _ H).
  - intros g g' M Hg. split; [exact (ff_shared_move ne a g g' M Hok Hg)|auto].
  - intros c p p' M. exact (good_move ne s a c p p' M Hok).
Qed.

(* Bystander independence: deleting the disconnects of any set D of clients
   from a trace leaves an executable trace, and every client outside D (and
   the cache, the flight, the origin's counters) ends exactly as before.
   The two runs go through the same states except that a client of D whose
   disconnect was deleted is not Gone: [g] are the phases of the second run. *)

Definition masked (D : client -> bool) (f g : client -> phase) : Prop :=
  forall c, f c = g c \/ D c = true /\ f c = Gone.

Lemma masked_upd D f g c p : masked D f g -> masked D (upd f c p) (upd g c p).
Proof. intros H c0. unfold upd. destruct (c0 =? c); auto. Qed.

Lemma masked_gone D f g c : D c = true -> masked D f g -> masked D (upd f c Gone) g.
Proof.
  intros Hd H c0. unfold upd. destruct (c0 =? c) eqn:E; [|apply H].
  apply Z.eqb_eq in E. subst c0. auto.
Qed.

(* the step is one of the deleted disconnects *)
Lemma step_deleted D s g a t :
  masked D (ph s) g -> is_disconnect_of D a = true -> lts_step s a = Some t ->
  set_ph t g = set_ph s g /\ masked D (ph t) g.
Proof.
  intros H Hd Hstep. destruct a; try discriminate. cbn in Hd, Hstep.
  destruct (ph s c); injection Hstep as <-; (split; [reflexivity|]); auto; now apply masked_gone.
Qed.

(* any other step can be taken in the trace without the disconnects, with the same effect: the
   client that takes it is not Gone, so it is in the same phase in both runs *)
Lemma step_kept D s g a t :
  masked D (ph s) g -> is_disconnect_of D a = false -> lts_step s a = Some t ->
  exists g', lts_step (set_ph s g) a = Some (set_ph t g') /\ masked D (ph t) g'.
Proof.
  intros H Hd.
  apply (step_some (fun t => exists g', lts_step (set_ph s g) a = Some (set_ph t g') /\ masked D (ph t) g')).
  assert (Hact : forall c, g c = ph s c \/ ph s c = Gone /\ D c = true).
  { intros c. destruct (H c) as [|[]]; auto. }
  (* a client that is Gone can only disconnect, and that would be a deleted step *)
  destruct a; cbn [lts_step set_ph ph flight_ cache origin_count cond_count stored faults];
    try (destruct (Hact c) as [->|[E Hc]]; [|rewrite E; cbn in *; congruence || exact I]).
  (* the tests of the step come out the same in both runs, and so does the phase it assigns *)
  all: step_tests; eexists; (split; [reflexivity|]); cbn [ph set_ph set_flight set_stage]; auto using masked_upd.
  (* left: FlightReturn, which maps every client's phase; it leaves Gone alone *)
  intros c. destruct (H c) as [->|[E ->]]; auto.
Qed.

Lemma masked_run D tr : forall s g t,
  masked D (ph s) g -> run s tr = Some t ->
  exists g', run (set_ph s g) (without_disconnects D tr) = Some (set_ph t g') /\ masked D (ph t) g'.
Proof.
  induction tr as [|a tr IH]; cbn [run]; intros s g t H Hrun.
  - injection Hrun as <-. exists g. auto.
  - destruct (lts_step s a) as [s1|] eqn:E; [|discriminate].
    unfold without_disconnects; cbn [filter].
    destruct (is_disconnect_of D a) eqn:Ed; cbn [negb].
    + destruct (step_deleted D s g a s1 H Ed E) as [<- H1]. exact (IH s1 g t H1 Hrun).
    + destruct (step_kept D s g a s1 H Ed E) as (g1 & E1 & H1).
      cbn [run]. rewrite E1. exact (IH _ g1 t H1 Hrun).
Qed.

Theorem bystander_independence : forall (D : client -> bool) ks tr s,
  run (init ks) tr = Some s ->
  exists s', run (init ks) (without_disconnects D tr) = Some s' /\
    (forall c, D c = false -> ph s' c = ph s c) /\
    cache s' = cache s /\ origin_count s' = origin_count s /\ cond_count s' = cond_count s.
Proof.
  intros D ks tr s Hrun.
  destruct (masked_run D tr (init ks) (ph (init ks)) s (fun c => or_introl eq_refl) Hrun) as (g & Hrun' & H).
  exists (set_ph s g). repeat split; auto.
  intros c Hd. destruct (H c) as [E|[E _]]; [auto|congruence].
Qed.

(* Progress: whatever has happened, a client that is waiting inside Do or is past it can be
   brought to its answer by steps of the proxy, of the origin and of its own alone - it never
   depends on a step of another client (in particular not of one that has disconnected or is
   slow), on a new arrival or on an eviction. *)

Definition can_finish (s : state) (c : client) : Prop :=
  exists tr s' r, forallb (step_for c) tr = true /\ run s tr = Some s' /\ ph s' c = Done r.

Lemma can_finish_step s a s1 c :
  step_for c a = true -> lts_step s a = Some s1 -> can_finish s1 c -> can_finish s c.
Proof.
  intros Ha Hs (tr & s' & r & Hok & Hrun & Hd).
  exists (a :: tr), s', r. cbn [forallb run]. rewrite Ha, Hs. auto.
Qed.

(* take the step [a]; left to show: it is enabled, and the client can finish from where it leads *)
Ltac advance a :=
  eapply (can_finish_step _ a); [first [reflexivity|apply Z.eqb_refl]|cbn [lts_step]|].

Lemma finish_done s c r : ph s c = Done r -> can_finish s c.
Proof. intros H. now exists [], s, r. Qed.

Lemma finish_have s c r : ph s c = Post (PHave r) -> can_finish s c.
Proof.
  intros H. advance (Respond c); [now rewrite H|]. eapply finish_done, upd_same.
Qed.

Lemma finish_direct s c : ph s c = Post PDirect -> can_finish s c.
Proof.
  intros H. advance (FollowerFallback c KCacheable); [now rewrite H|].
  eapply finish_have, upd_same.
Qed.

Lemma finish_post s c q : ph s c = Post q -> can_finish s c.
Proof.
  intros H. destruct q as [v [|]|r|].
  - destruct (cache s) as [[w b]|] eqn:Ec; advance (FollowerReGet c); try (now rewrite H, Ec).
    + eapply finish_have, upd_same.
    + eapply finish_direct, upd_same.
  - advance (Respond c); [now rewrite H|]. eapply finish_done, upd_same.
  - eapply finish_have; eauto.
  - eapply finish_direct; eauto.
Qed.

Lemma finish_result s c f r :
  ph s c = InFlight -> flight_ s = Some f -> fl_stage f = SResult r -> can_finish s c.
Proof.
  intros Hc Hf Hst. advance FlightReturn; [now rewrite Hf, Hst|].
  assert (exists q, after_do r (fl_shared f) = Post q) as (q & Hq) by (destruct r; cbn; eauto).
  apply (finish_post _ c q). cbn. now rewrite Hc.
Qed.

Lemma finish_answered s c f n a :
  ph s c = InFlight -> flight_ s = Some f -> fl_stage f = SAnswered n a -> can_finish s c.
Proof.
  intros Hc Hf Hst.
  destruct a; [| | |destruct (cache s) as [[v b]|] eqn:Ec|]; advance LeaderStore;
    try (now rewrite Hf, Hst, ?Ec); eapply (finish_result _ c); cbn; eauto; reflexivity.
Qed.

Lemma finish_wait s c f n cond :
  ph s c = InFlight -> flight_ s = Some f -> fl_stage f = SWait n cond -> can_finish s c.
Proof.
  intros Hc Hf Hst. advance (OriginAnswer KCacheable); [now rewrite Hf, Hst|].
  eapply (finish_answered _ c); cbn; eauto; reflexivity.
Qed.

Lemma finish_lookup s c f :
  ph s c = InFlight -> flight_ s = Some f -> fl_stage f = SLookup -> can_finish s c.
Proof.
  intros Hc Hf Hst.
  destruct (cache s) as [[v [|]]|] eqn:Ec; advance LeaderLookup; try (now rewrite Hf, Hst, Ec).
  - eapply (finish_result _ c); cbn; eauto; reflexivity.
  - eapply (finish_wait _ c); cbn; eauto; reflexivity.
  - eapply (finish_wait _ c); cbn; eauto; reflexivity.
Qed.

(* every client inside Do belongs to the running flight *)
Definition live_inv (s : state) : Prop := flight_ s = None -> forall c, ph s c <> InFlight.

Lemma live_inv_step s a s' : live_inv s -> lts_step s a = Some s' -> live_inv s'.
Proof.
  intros Hl. apply (step_some live_inv). unfold live_inv in *.
  step_cases a; cbn; try discriminate; intros Hn c0; try (specialize (Hl Hn c0)); unfold upd;
    try (destruct (c0 =? _)); try congruence.
  (* the flight returns: whoever was inside Do is past it *)
  destruct (ph s c0); try discriminate. destruct r; discriminate.
Qed.

Theorem no_client_stuck : forall ks tr s c,
  run (init ks) tr = Some s ->
  ph s c = InFlight \/ (exists q, ph s c = Post q) ->
  can_finish s c.
Proof.
  intros ks tr s c Hrun Hw.
  assert (Hl : live_inv s).
  { refine (run_invariant_all live_inv live_inv_step tr (init ks) s _ Hrun). intros _ c0; cbn; discriminate. }
  destruct Hw as [Hw|(q & Hw)]; [|eapply finish_post; eauto].
  destruct (flight_ s) as [f|] eqn:Hf; [|exfalso; exact (Hl Hf c Hw)].
  destruct (fl_stage f) eqn:Hst; eauto using finish_lookup, finish_wait, finish_answered, finish_result.
Qed.
