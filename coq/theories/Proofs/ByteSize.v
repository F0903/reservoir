(* Proofs about Model/ByteSize.v.  Parse accepts exactly <digits><unit letter> with digits * unit an int64, and
   returns that product (bs_parse_sound_lemma, bs_parse_complete); String prints a size in the largest unit
   that divides it, so Parse reads it back (bs_roundtrip_lemma).  The loop is followed one character at a
   time, a digit by bs_loop_digit and the unit by bs_loop_unit: there the two overflow guards, which divide,
   become comparisons of products (div_ltb) and wrap64 goes away. *)
From Reservoir Require Import Base.Prelude Base.Strings Model.ByteSize.
From Coq Require Import ZifyBool.

Lemma dec_acc_linear a s : dec_acc a s = a * 10 ^ zlen s + dec_acc 0 s.
Proof.
  revert a; induction s as [|c s IH]; intros a; cbn [dec_acc].
  - unfold zlen; simpl. lia.
  - rewrite IH. rewrite (IH (0 * 10 + (c - 48))).
    unfold zlen. cbn [length]. rewrite Nat2Z.inj_succ, Z.pow_succ_r by lia. lia.
Qed.

Lemma digits_rev_value fuel : forall n,
  0 <= n < 2 ^ Z.of_nat fuel -> dec_value (rev (digits_rev fuel n)) = n.
Proof.
  induction fuel as [|f IH]; intros n Hn.
  - cbn in *. lia.
  - cbn [digits_rev rev]. rewrite dec_value_snoc.
    rewrite Nat2Z.inj_succ, Z.pow_succ_r in Hn by lia.
    destruct (n <? 10) eqn:E.
    + cbn [rev app dec_value dec_acc]. Z.div_mod_to_equations. lia.
    + rewrite IH; Z.div_mod_to_equations; lia.
Qed.

Lemma digits_rev_digits fuel : forall n, 0 <= n -> forallb is_digit (digits_rev fuel n) = true.
Proof.
  induction fuel as [|f IH]; intros n Hn; cbn [digits_rev forallb]; [reflexivity|].
  apply andb_true_iff; split.
  - apply is_digit_range. Z.div_mod_to_equations. lia.
  - destruct (n <? 10) eqn:E; [reflexivity|]. apply IH. Z.div_mod_to_equations. lia.
Qed.

Lemma digits_rev_nonempty fuel n : digits_rev (S fuel) n <> [].
Proof. cbn [digits_rev]. discriminate. Qed.

Lemma log2_fuel n : 0 <= n -> n < 2 ^ Z.of_nat (S (Z.to_nat (Z.log2 n))).
Proof.
  intros Hn. rewrite Nat2Z.inj_succ, Z2Nat.id by apply Z.log2_nonneg.
  destruct (Z.eq_dec n 0) as [->|Hz]; [simpl; lia|].
  apply Z.log2_spec. lia.
Qed.

Lemma fmt_nat_value n : 0 <= n -> dec_value (fmt_nat n) = n.
Proof. intros Hn. apply digits_rev_value. split; [lia|apply log2_fuel; lia]. Qed.

Lemma fmt_nat_digits n : 0 <= n -> all_digits (fmt_nat n) = true.
Proof.
  intros Hn. unfold all_digits, fmt_nat. rewrite forallb_rev. apply digits_rev_digits. lia.
Qed.

Lemma fmt_nat_nonempty n : fmt_nat n <> [].
Proof. unfold fmt_nat. cbn [digits_rev rev]. intros H. apply app_eq_nil in H as [_ H]. discriminate. Qed.

Lemma unit_of_spec c u : unit_of c = Some u -> 0 < u /\ is_digit c = false.
Proof.
  unfold unit_of, is_digit.
  repeat match goal with |- context [if c =? ?k then _ else _] => destruct (c =? k) eqn:? end;
    intros [= <-]; lia.
Qed.

Lemma pick_unit_spec l b c u :
  Forall (fun cu => unit_of (fst cu) = Some (snd cu)) l ->
  pick_unit l b = (c, u) -> unit_of c = Some u /\ Z.rem b u = 0.
Proof.
  induction 1 as [|[c' u'] l Hu _ IH]; cbn [pick_unit].
  - intros [= <- <-]. split; [reflexivity|apply Z.rem_1_r].
  - destruct (u' <=? b); [destruct (Z.rem b u' =? 0) eqn:E|]; cbn [andb]; try exact IH.
    intros [= <- <-]. split; [exact Hu|lia].
Qed.

Lemma units_desc_units : Forall (fun cu => unit_of (fst cu) = Some (snd cu)) units_desc.
Proof. repeat constructor. Qed.

(* both overflow guards of Parse have this form *)
Lemma div_ltb m u n : 0 < u -> (m / u <? n) = negb (n * u <=? m).
Proof. intros Hu. Z.div_mod_to_equations. nia. Qed.

Lemma bs_loop_digit num seen c r : is_digit c = true -> 0 <= num ->
  bs_loop num seen (c :: r) =
  if num * 10 <=? max_int64 - (c - 48) then bs_loop (num * 10 + (c - 48)) true r else Err.
Proof.
  intros Hc Hn. cbn [bs_loop]. rewrite Hc, div_ltb by lia. apply is_digit_range in Hc.
  destruct (num * 10 <=? _) eqn:G; [|reflexivity]. cbn [negb]. rewrite wrap64_small by lia. reflexivity.
Qed.

Lemma bs_loop_unit num seen c u r : unit_of c = Some u -> 0 <= num ->
  bs_loop num seen (c :: r) =
  match r with
  | [] => if seen && (num * u <=? max_int64) then Ok (num * u) else Err
  | _ => Err
  end.
Proof.
  intros Hu Hn. destruct (unit_of_spec _ _ Hu) as [Hp Hc].
  cbn [bs_loop]. rewrite Hc, Hu, div_ltb by lia.
  destruct seen, r; try reflexivity. cbn [negb andb].
  destruct (num * u <=? max_int64) eqn:G; [|reflexivity]. cbn [negb]. rewrite wrap64_small by lia. reflexivity.
Qed.

(* digits in front: the loop consumes them all as long as the value fits *)
Lemma bs_loop_digits ds : forall num seen rest,
  0 <= num -> all_digits ds = true -> dec_acc num ds <= max_int64 ->
  bs_loop num seen (ds ++ rest) =
  bs_loop (dec_acc num ds) (seen || negb (str_eqb ds [])) rest.
Proof.
  induction ds as [|c ds IH]; intros num seen rest Hn Hd Hfit.
  - cbn. rewrite orb_false_r. reflexivity.
  - apply andb_true_iff in Hd as [Hc Hd]. cbn [app dec_acc] in *.
    rewrite bs_loop_digit by assumption. apply is_digit_range in Hc.
    pose proof (dec_acc_mono ds (num * 10 + (c - 48)) Hd ltac:(lia)) as Hm.
    destruct (num * 10 <=? _) eqn:G; [|lia].
    rewrite IH by (try assumption; lia). cbn. rewrite orb_true_r. reflexivity.
Qed.

Theorem bs_parse_complete ds c u :
  ds <> [] -> all_digits ds = true -> unit_of c = Some u ->
  dec_value ds * u <= max_int64 ->
  bs_parse (ds ++ [c]) = Ok (dec_value ds * u).
Proof.
  intros Hne Hd Hu Hfit. unfold bs_parse.
  destruct (ds ++ [c]) eqn:E; [destruct ds; discriminate|]. rewrite <- E. clear E.
  destruct (unit_of_spec _ _ Hu) as [Hp _]. pose proof (dec_value_nonneg ds Hd) as Hge.
  rewrite bs_loop_digits by (try assumption; fold (dec_value ds); nia).
  rewrite (bs_loop_unit _ _ _ _ _ Hu) by exact Hge. fold (dec_value ds).
  destruct ds; [contradiction|]. cbn [str_eqb negb orb andb].
  destruct (_ <=? max_int64) eqn:G; [reflexivity|lia].
Qed.

Lemma bs_loop_sound s : forall num seen n,
  0 <= num ->
  bs_loop num seen s = Ok n ->
  exists ds c u, s = ds ++ [c] /\ all_digits ds = true /\ (seen = true \/ ds <> []) /\
                 unit_of c = Some u /\ n = dec_acc num ds * u /\ n <= max_int64.
Proof.
  induction s as [|c r IH]; intros num seen n Hn H; [discriminate|].
  destruct (is_digit c) eqn:Hc.
  - rewrite bs_loop_digit in H by assumption. apply is_digit_range in Hc as Hc'.
    destruct (num * 10 <=? _); [|discriminate].
    apply IH in H as (ds & c' & u & -> & Hd & _ & Hu & -> & Hr); [|lia].
    exists (c :: ds), c', u. cbn [all_digits forallb]. rewrite Hc.
    repeat split; try assumption. right. discriminate.
  - destruct (unit_of c) as [u|] eqn:Hu; [|cbn [bs_loop] in H; rewrite Hc, Hu in H; discriminate].
    rewrite (bs_loop_unit _ _ _ _ _ Hu) in H by assumption.
    destruct r; [|discriminate]. destruct seen; [|discriminate]. cbn [andb] in H.
    destruct (num * u <=? max_int64) eqn:G; [|discriminate]. injection H as <-.
    exists [], c, u. repeat split; auto. lia.
Qed.

Theorem bs_parse_sound_lemma s n :
  bs_parse s = Ok n ->
  exists ds c u, s = ds ++ [c] /\ ds <> [] /\ all_digits ds = true /\ unit_of c = Some u /\
                 n = dec_value ds * u /\ 0 <= n < 2^63.
Proof.
  unfold bs_parse. destruct s as [|c0 r0] eqn:Es; [discriminate|]. rewrite <- Es. intros H.
  apply bs_loop_sound in H as (ds & c & u & -> & Hd & [Hs|Hs] & Hu & -> & Hr); [discriminate Hs| |lia].
  exists ds, c, u. destruct (unit_of_spec _ _ Hu) as [Hp _]. pose proof (dec_value_nonneg ds Hd).
  fold (dec_value ds) in *. unfold max_int64 in Hr. repeat split; try assumption; nia.
Qed.

Theorem bs_parse_no_panic s : bs_parse s <> Panic.
Proof.
  unfold bs_parse. destruct s as [|c0 r0] eqn:Es; [discriminate|]. rewrite <- Es. clear Es c0 r0.
  generalize 0 false. induction s as [|c r IH]; intros num seen; cbn [bs_loop]; [discriminate|].
  destruct (is_digit c).
  - destruct (_ <? num); [discriminate|apply IH].
  - destruct (unit_of c); [|discriminate]. destruct (negb seen); [discriminate|].
    destruct r; [|discriminate]. destruct (_ <? num); discriminate.
Qed.

Theorem bs_roundtrip_lemma n : 0 <= n < 2^63 -> bs_parse (bs_string n) = Ok n.
Proof.
  intros Hn. unfold bs_string.
  destruct (pick_unit units_desc n) as [c u] eqn:P.
  apply (pick_unit_spec _ _ _ _ units_desc_units) in P as [Hu Hrem].
  destruct (unit_of_spec _ _ Hu) as [Hp _].
  assert (Hq : 0 <= Z.quot n u) by (apply Z.quot_pos; lia).
  assert (Hmul : Z.quot n u * u = n) by (pose proof (Z.quot_rem' n u); lia).
  unfold fmt_int. destruct (Z.quot n u <? 0) eqn:E; [lia|].
  rewrite bs_parse_complete with (u := u); rewrite ?fmt_nat_value, ?Hmul by lia.
  - reflexivity.
  - apply fmt_nat_nonempty.
  - apply fmt_nat_digits. lia.
  - exact Hu.
  - unfold max_int64. lia.
Qed.

(* the printed form is itself in the documented shape *)
Theorem bs_string_shape n : 0 <= n < 2^63 ->
  exists ds c u, bs_string n = ds ++ [c] /\ ds <> [] /\ all_digits ds = true /\
                 unit_of c = Some u /\ dec_value ds * u = n.
Proof.
  intros Hn. pose proof (bs_roundtrip_lemma n Hn) as H.
  apply bs_parse_sound_lemma in H. destruct H as (ds & c & u & E & Hne & Hd & Hu & Hv & _).
  exists ds, c, u. repeat split; try assumption. lia.
Qed.

Theorem bs_string_inj a b : 0 <= a < 2^63 -> 0 <= b < 2^63 -> bs_string a = bs_string b -> a = b.
Proof.
  intros Ha Hb E. pose proof (bs_roundtrip_lemma a Ha) as H1. pose proof (bs_roundtrip_lemma b Hb) as H2.
  rewrite E in H1. congruence.
Qed.
