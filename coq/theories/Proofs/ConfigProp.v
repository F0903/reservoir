From Reservoir Require Import Base.Prelude Model.ByteSize Proofs.ByteSize Model.ConfigProp.

Section Commit.
Context {T : Type}.

Lemma marshal_commit (p : cprop T) : cp_marshal (cp_commit p) = cp_marshal p.
Proof. destruct p as [c [o|]]; reflexivity. Qed.

Lemma read_commit_pending (p : cprop T) : cp_read (cp_commit p) = ow_get (cp_pending p).
Proof. destruct p as [c [o|]]; reflexivity. Qed.

Lemma commit_settled (p : cprop T) : c_staged (cp_commit p) = None.
Proof. destruct p as [c [o|]]; reflexivity. Qed.

Lemma commit_of_settled (p : cprop T) : c_staged p = None -> cp_commit p = p.
Proof. unfold cp_commit. intros ->. reflexivity. Qed.

End Commit.

(* Reference semantics of a history of overrides and updates, written from
   the property statement: the running process sees the last override if
   there was one, else the last accepted update (else the initial value);
   the file holds the last accepted update (else the initial value). *)

Section Ref.
Context {T : Type}.

Definition ref_over (ops : list (cop T)) (ov : option T) : option T :=
  fold_left (fun a op => match op with COverride v => Some v | CUpdate _ => a end) ops ov.

Definition ref_base (ops : list (cop T)) (b : T) : T :=
  fold_left (fun a op => match op with CUpdate v => v | COverride _ => a end) ops b.

Definition ref_read (ops : list (cop T)) (b : T) : T :=
  match ref_over ops None with Some o => o | None => ref_base ops b end.

(* one high-level step on a settled property (nothing staged) *)
Lemma cstep_settled (p : cprop T) op :
  c_staged p = None ->
  let q := fst (cstep p op) in
  c_staged q = None /\
  o_value (c_committed q) = match op with CUpdate v => v | COverride _ => o_value (c_committed p) end /\
  o_over (c_committed q) = match op with COverride v => Some v | CUpdate _ => o_over (c_committed p) end /\
  snd (cstep p op) = [cp_read q].
Proof.
  intros Hs. destruct p as [[b ov] st]. cbn in Hs. subst st.
  destruct op as [v|v]; cbn; repeat split; reflexivity.
Qed.

Lemma crun_settled ops : forall (p : cprop T),
  c_staged p = None ->
  let q := crun p ops in
  c_staged q = None /\
  o_value (c_committed q) = ref_base ops (o_value (c_committed p)) /\
  o_over (c_committed q) = ref_over ops (o_over (c_committed p)).
Proof.
  induction ops as [|op ops IH]; intros p Hs; [cbn; auto|].
  unfold crun. cbn [fold_left]. fold (crun (fst (cstep p op)) ops).
  destruct (cstep_settled p op Hs) as (H1 & H2 & H3 & _).
  destruct (IH _ H1) as (I1 & I2 & I3).
  cbn zeta. rewrite I2, I3, H2, H3. unfold ref_base, ref_over. cbn [fold_left].
  repeat split; try assumption; destruct op; reflexivity.
Qed.

Theorem override_wins_not_saved_lemma (v0 : T) (ops : list (cop T)) :
  let p := crun (cp_new v0) ops in
  cp_read p = ref_read ops v0 /\ cp_marshal p = ref_base ops v0 /\ c_staged p = None.
Proof.
  destruct (crun_settled ops (cp_new v0) eq_refl) as (H1 & H2 & H3). cbn zeta.
  unfold cp_read, cp_marshal, cp_pending, ow_get, ref_read. rewrite H1, H3, H2. cbn. auto.
Qed.

Theorem live_read_lemma (v0 : T) (ops : list (cop T)) :
  cp_read (crun (cp_new v0) ops) = ref_read ops v0.
Proof. exact (proj1 (override_wins_not_saved_lemma v0 ops)). Qed.

(* what the listeners are told by each operation is the value Read returns after it *)
Theorem told_is_read_lemma (v0 : T) (ops : list (cop T)) (op : cop T) :
  let p := crun (cp_new v0) ops in
  snd (cstep p op) = [cp_read (fst (cstep p op))].
Proof.
  destruct (crun_settled ops (cp_new v0) eq_refl) as (H1 & _). cbn zeta.
  apply (cstep_settled _ op H1).
Qed.

Lemma crun_app (p : cprop T) (a b : list (cop T)) : crun p (a ++ b) = crun (crun p a) b.
Proof. apply fold_left_app. Qed.

Lemma ref_over_updates (ops : list (cop T)) : (forall v, ~ In (COverride v) ops) -> forall ov, ref_over ops ov = ov.
Proof.
  induction ops as [|[v|v] ops IH]; intros Hno ov; [reflexivity|destruct (Hno v); left; reflexivity|].
  apply IH. intros w Hw. apply (Hno w). right. exact Hw.
Qed.

Lemma ref_read_override_last (ops1 ops2 : list (cop T)) (o b : T) :
  (forall v, ~ In (COverride v) ops2) -> ref_read (ops1 ++ COverride o :: ops2) b = o.
Proof.
  intros Hno. unfold ref_read, ref_over. rewrite fold_left_app. cbn [fold_left].
  fold (ref_over ops2 (Some o)). rewrite ref_over_updates by exact Hno. reflexivity.
Qed.

(* an override given before any number of updates keeps winning (that none of it reaches the file is the
   second clause of override_wins_not_saved_lemma) *)
Corollary override_survives_updates (v0 o : T) (ops1 ops2 : list (cop T)) :
  (forall v, ~ In (COverride v) ops2) ->
  cp_read (crun (cp_new v0) (ops1 ++ COverride o :: ops2)) = o.
Proof. intros Hno. rewrite live_read_lemma. apply ref_read_override_last, Hno. Qed.

(* Fine-grained API histories (Overwrite / Stage / CommitStaged in any order),
   under the one restriction that no Overwrite arrives while a value is staged
   (OverrideFromFlags runs once at start-up, before any update). *)

(* the reference state: the saved value, the override in force, the value staged *)
Record fref := { fr_base : T; fr_over : option T; fr_staged : option T }.

Definition fref_step (r : fref) (op : fop T) : fref :=
  match op with
  | FOverwrite v => {| fr_base := fr_base r; fr_over := Some v; fr_staged := fr_staged r |}
  | FStage v => {| fr_base := fr_base r; fr_over := fr_over r; fr_staged := Some v |}
  | FCommit => match fr_staged r with
               | Some v => {| fr_base := v; fr_over := fr_over r; fr_staged := None |}
               | None => r
               end
  end.

(* the restriction; [staged]: whether a value is staged when ops begin *)
Fixpoint fwf (staged : bool) (ops : list (fop T)) : bool :=
  match ops with
  | [] => true
  | FOverwrite _ :: r => negb staged && fwf staged r
  | FStage _ :: r => fwf true r
  | FCommit :: r => fwf false r
  end.

(* the model's property against the reference state.  A staged value carries the override that was in force
   when it was staged (cp_stage); that this is still [fr_over r] is what the restriction buys. *)
Definition frel (p : cprop T) (r : fref) : Prop :=
  o_value (c_committed p) = fr_base r /\ o_over (c_committed p) = fr_over r /\
  c_staged p = match fr_staged r with
               | Some v => Some {| o_value := v; o_over := fr_over r |}
               | None => None
               end.

Definition has_staged (r : fref) : bool := match fr_staged r with Some _ => true | None => false end.

Lemma frel_step p r op ops :
  frel p r -> fwf (has_staged r) (op :: ops) = true ->
  frel (fst (fstep p op)) (fref_step r op) /\ fwf (has_staged (fref_step r op)) ops = true.
Proof.
  unfold has_staged. intros (H1 & H2 & H3) Hw. destruct p as [[b ov] st]. cbn in H1, H2, H3. subst b ov st.
  destruct op as [v|v|]; cbn [fwf] in Hw; unfold frel; cbn.
  - destruct (fr_staged r); [discriminate|]. auto.
  - auto.
  - unfold cp_commit. cbn. destruct (fr_staged r) eqn:E; cbn; rewrite ?E; auto.
Qed.

(* the fold of [frun] with the list of what was fired generalised, for the induction *)
Lemma frun_fst (ops : list (fop T)) : forall p acc,
  fst (fold_left (fun st op => let '(q, f) := fstep (fst st) op in (q, snd st ++ f)) ops (p, acc)) =
  fold_left (fun q op => fst (fstep q op)) ops p.
Proof. induction ops as [|op ops IH]; intros p acc; [reflexivity|]. cbn. destruct (fstep p op). apply IH. Qed.

Lemma frel_run (ops : list (fop T)) : forall p r,
  frel p r -> fwf (has_staged r) ops = true ->
  frel (fold_left (fun q op => fst (fstep q op)) ops p) (fold_left fref_step ops r).
Proof.
  induction ops as [|op ops IH]; intros p r Hr Hw; [exact Hr|].
  destruct (frel_step p r op ops Hr Hw). apply IH; assumption.
Qed.

Theorem fine_refines_lemma (v0 : T) (ops : list (fop T)) :
  fwf false ops = true ->
  let p := fst (frun (cp_new v0) ops) in
  let r := fold_left fref_step ops {| fr_base := v0; fr_over := None; fr_staged := None |} in
  cp_read p = (match fr_over r with Some o => o | None => fr_base r end) /\
  cp_marshal p = (match fr_staged r with Some v => v | None => fr_base r end).
Proof.
  intros Hw. unfold frun. rewrite frun_fst.
  destruct (frel_run ops (cp_new v0) {| fr_base := v0; fr_over := None; fr_staged := None |}) as (H1 & H2 & H3);
    [unfold frel; cbn; auto|exact Hw|].
  unfold cp_read, cp_marshal, cp_pending, ow_get. rewrite H1, H2, H3.
  split; [reflexivity|]. destruct (fr_staged _); [reflexivity|exact H1].
Qed.

End Ref.

Section SaveLoad.
Variable lib_enc : fkind -> fval -> str.
Variable lib_dec : fkind -> str -> res fval.
Variable verify : list (fkind * fval) -> bool.
(* which values the library codecs are asked to carry (valid UTF-8 strings, int64 durations ...) *)
Variable lib_valid : fkind -> fval -> Prop.
Hypothesis lib_roundtrip : forall k v, k <> KSize -> lib_valid k v -> lib_dec k (lib_enc k v) = Ok v.

Definition field_valid (kv : fkind * fval) : Prop :=
  match kv with
  | (KSize, VZ n) => 0 <= n < 2^63
  | (KSize, _) => False
  | (k, v) => lib_valid k v
  end.

Lemma field_roundtrip k v : field_valid (k, v) -> dec_field lib_dec k (enc_field lib_enc k v) = Ok v.
Proof.
  intros Hv. destruct k; cbn in *; try (apply lib_roundtrip; [discriminate|exact Hv]).
  destruct v as [s|b|n]; try contradiction.
  rewrite bs_roundtrip_lemma by exact Hv. reflexivity.
Qed.

Lemma decode_all (vs : list (fkind * fval)) :
  Forall field_valid vs ->
  res_all (map (fun ks : fkind * str => match dec_field lib_dec (fst ks) (snd ks) with
                                | Ok v => Ok (fst ks, v) | Err => Err | Panic => Panic end)
               (map (fun kv => (fst kv, enc_field lib_enc (fst kv) (snd kv))) vs)) = Ok vs.
Proof.
  induction 1 as [|[k v] vs Hv _ IH]; [reflexivity|].
  cbn [map fst snd res_all]. rewrite (field_roundtrip k v Hv). cbn [res_bind].
  rewrite IH. reflexivity.
Qed.

Theorem cfg_roundtrip_lemma (c : config) :
  Forall field_valid (bases c) -> verify (bases c) = true ->
  exists c', load lib_dec verify (persist lib_enc c) = Ok c' /\
             effective c' = bases c /\ bases c' = bases c.
Proof.
  intros Hv Hver. unfold load, persist. rewrite (decode_all _ Hv), Hver.
  eexists; split; [reflexivity|].
  unfold effective, bases. rewrite !map_map. cbn.
  split; apply map_ext; intros [k p]; reflexivity.
Qed.

(* with no override in force (and no update in flight) the reloaded process sees exactly the same settings *)
Corollary cfg_roundtrip_same (c : config) :
  Forall field_valid (bases c) -> verify (bases c) = true ->
  (forall kp, In kp c -> o_over (c_committed (snd kp)) = None /\ c_staged (snd kp) = None) ->
  exists c', load lib_dec verify (persist lib_enc c) = Ok c' /\ effective c' = effective c.
Proof.
  intros Hv Hver Hno. destruct (cfg_roundtrip_lemma c Hv Hver) as (c' & H1 & H2 & _).
  exists c'. split; [exact H1|]. rewrite H2. unfold bases, effective.
  apply map_ext_in. intros kp Hin. destruct (Hno kp Hin) as [Ho Hs].
  unfold cp_read, cp_marshal, cp_pending, ow_get. rewrite Ho, Hs. reflexivity.
Qed.

End SaveLoad.
