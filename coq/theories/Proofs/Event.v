(* Proofs about Model/Event.v (C19).  A step moves the shared part as the reference [spec_step]
   says and otherwise acts on each subscription by itself ([step_effect], [sub_next]); so the
   invariant is kept one subscription at a time ([sub_ok_next]), and the theorems about a live or
   an unsubscribed listener are read off [sub_ok] and [sub_next]. *)
From Reservoir Require Import Base.Prelude Model.Event.

Local Open Scope nat_scope.

Lemma last_skipn {A} (l : list A) : forall n d, n < length l -> last (skipn n l) d = last l d.
Proof.
  induction l as [|x r IH]; intros n d H; [cbn in H; lia|].
  destruct n as [|n]; [reflexivity|]. cbn [skipn]. cbn [length] in H.
  rewrite IH by lia. destruct r; [cbn in H; lia|reflexivity].
Qed.

Lemma upd_length h : forall id f, length (upd h id f) = length h.
Proof. induction h as [|s r IH]; intros [|n] f; cbn; auto. Qed.

Lemma get_upd h : forall id j f, j < length h ->
  get (upd h id f) j = if j =? id then f (get h j) else get h j.
Proof.
  unfold get. induction h as [|s r IH]; intros [|n] [|m] f H; cbn in *; try lia; auto.
  apply IH. lia.
Qed.

Lemma get_snoc h x j : j <= length h -> get (h ++ [x]) j = if j =? length h then x else get h j.
Proof.
  intros H. unfold get. destruct (Nat.eqb_spec j (length h)) as [->|].
  - rewrite app_nth2, Nat.sub_diag by lia. reflexivity.
  - apply app_nth1. lia.
Qed.

Definition memb (id : nat) (l : list nat) : bool := existsb (Nat.eqb id) l.

Lemma memb_in id l : memb id l = true <-> In id l.
Proof.
  unfold memb. rewrite existsb_exists. split.
  - intros (x & Hx & E). apply Nat.eqb_eq in E. subst. exact Hx.
  - intros H. exists id. split; [exact H|apply Nat.eqb_refl].
Qed.

Lemma memb_false_notin id l : memb id l = false <-> ~ In id l.
Proof.
  rewrite <- memb_in. symmetry. apply not_true_iff_false.
Qed.

Lemma memb_snoc id l x : memb id (l ++ [x]) = memb id l || (id =? x).
Proof. unfold memb. rewrite existsb_app. cbn. rewrite orb_false_r. reflexivity. Qed.

Lemma memb_filter x id l :
  memb x (filter (fun y => negb (Nat.eqb y id)) l) = memb x l && negb (Nat.eqb x id).
Proof. apply eq_true_iff_eq. rewrite andb_true_iff, !memb_in, filter_In. reflexivity. Qed.

Lemma filter_notin id l : ~ In id l -> filter (fun y => negb (Nat.eqb y id)) l = l.
Proof.
  induction l as [|y r IH]; intros H; [reflexivity|]. cbn [filter].
  destruct (Nat.eqb_spec y id) as [->|_].
  - destruct H. left. reflexivity.
  - cbn. f_equal. apply IH. intros G. apply H. right. exact G.
Qed.

Lemma find_index_none id l : find_index id l = None -> ~ In id l.
Proof.
  induction l as [|y r IH]; cbn; [auto|].
  destruct (Nat.eqb_spec y id) as [|N]; [discriminate|].
  destruct (find_index id r); [discriminate|]. intros _ [H|H]; [exact (N H)|exact (IH eq_refl H)].
Qed.

Lemma go_remove_cons {A} (x : A) i l :
  go_remove (S i) (x :: l) = res_bind (go_remove i l) (fun r => Ok (x :: r)).
Proof.
  unfold go_remove. change (S (S i) <=? length (x :: l)) with (S i <=? length l).
  destruct (S i <=? length l); reflexivity.
Qed.

Lemma find_index_some id l : forall i, NoDup l -> find_index id l = Some i ->
  go_remove i l = Ok (filter (fun y => negb (Nat.eqb y id)) l).
Proof.
  induction l as [|y r IH]; intros i Hnd F; [discriminate|].
  inversion Hnd as [|? ? Hni Hnd']; subst. cbn [find_index filter] in *.
  destruct (Nat.eqb_spec y id) as [->|_].
  - injection F as <-. cbn. rewrite filter_notin by exact Hni. reflexivity.
  - destruct (find_index id r) as [i'|]; [|discriminate]. injection F as <-.
    rewrite go_remove_cons, (IH i' Hnd' eq_refl). reflexivity.
Qed.

Lemma fire_fold_length v l : forall h,
  length (fold_left (fun h id => upd h id (fire_fields v)) l h) = length h.
Proof. induction l as [|x r IH]; intros h; cbn; [reflexivity|]. rewrite IH. apply upd_length. Qed.

Lemma fire_fold_get v l : forall h j,
  NoDup l -> j < length h ->
  get (fold_left (fun h id => upd h id (fire_fields v)) l h) j =
  if memb j l then fire_fields v (get h j) else get h j.
Proof.
  induction l as [|x r IH]; intros h j Hnd Hj; [reflexivity|].
  inversion Hnd as [|? ? Hni Hnd']; subst. cbn [fold_left].
  rewrite IH, get_upd by (rewrite ?upd_length; assumption).
  unfold memb. cbn [existsb]. fold (memb j r).
  destruct (Nat.eqb_spec j x) as [->|_]; [|reflexivity].
  apply memb_false_notin in Hni. rewrite Hni. reflexivity.
Qed.

(* The invariant: the subscriber list is duplicate-free and points into the
   heap; a subscription is active iff it is in the list, and while it is, what
   it has seen and what is queued for it are the values fired since it
   subscribed. *)

Definition sub_ok (fired : list Z) (live : bool) (s : sub) : Prop :=
  s_active s = live /\
  (s_active s = true -> s_log s ++ s_pending s = skipn (s_since s) fired) /\
  (s_pending s <> [] -> s_running s = true) /\
  (s_active s = false -> s_pending s = []) /\
  (s_incall s = true -> s_running s = true) /\
  s_since s <= length fired.

Definition Inv (st : est) : Prop :=
  NoDup (e_subs st) /\
  (forall id, In id (e_subs st) -> id < length (e_heap st)) /\
  (forall id, id < length (e_heap st) -> sub_ok (e_fired st) (memb id (e_subs st)) (get (e_heap st) id)).

Lemma inv_init : Inv e_init.
Proof.
  unfold Inv, e_init. cbn. split; [constructor|]. split; [intros id []|intros id H; lia].
Qed.

(* What a step does, read through the reference: the subscriber list, the heap
   size and the fired values move as [spec_step] says, and subscription j
   becomes [sub_next sp a j s], a function of the reference state and of that
   one subscription. *)

Definition abs (st : est) : spec :=
  {| sp_live := e_subs st; sp_next := length (e_heap st); sp_fired := e_fired st |}.

Definition rel (st : est) (s : spec) : Prop :=
  e_subs st = sp_live s /\ length (e_heap st) = sp_next s /\ e_fired st = sp_fired s.

Lemma rel_abs st s : rel st s -> abs st = s.
Proof. destruct s. unfold rel, abs. cbn. intros (-> & -> & ->). reflexivity. Qed.

Definition sub_next (sp : spec) (a : act) (j : nat) (s : sub) : sub :=
  match a with
  | ASub => if j =? sp_next sp then new_sub (length (sp_fired sp)) else s
  | AUnsub id => if j =? id then unsub_fields s else s
  | AFire v => if memb j (sp_live sp) then fire_fields v s else s
  | ADeliver id =>
      if (j =? id) && (s_running s && negb (s_incall s)) then
        match s_active s, s_pending s with
        | true, v :: rest => call_fields v rest s
        | _, _ => exit_fields s
        end
      else s
  | AReturn id => if (j =? id) && s_incall s then return_fields s else s
  end.

Definition effect (st : est) (a : act) (st' : est) : Prop :=
  rel st' (spec_step (abs st) a) /\
  forall j, j < sp_next (spec_step (abs st) a) ->
    get (e_heap st') j = sub_next (abs st) a j (get (e_heap st) j).

Lemma step_effect st a : Inv st -> exists st', step st a = Ok st' /\ effect st a st'.
Proof.
  intros (Hnd & Hb & _). unfold effect. destruct a as [|id|v|id|id]; cbn [step sub_next spec_step abs sp_live sp_next sp_fired].
  - eexists. split; [reflexivity|]. split.
    + repeat split. cbn [e_heap]. rewrite app_length. apply Nat.add_1_r.
    + intros j Hj. apply get_snoc. lia.
  - destruct (Nat.leb_spec (length (e_heap st)) id) as [L|L].
    + exists st. split; [reflexivity|]. split.
      * repeat split. symmetry. apply filter_notin. intros G. apply Hb in G. lia.
      * intros j Hj. destruct (Nat.eqb_spec j id); [lia|reflexivity].
    + exists {| e_subs := filter (fun y => negb (y =? id)) (e_subs st);
                e_heap := upd (e_heap st) id unsub_fields; e_fired := e_fired st |}.
      split; [|split; [repeat split; apply upd_length|intros j; apply get_upd]].
      destruct (find_index id (e_subs st)) as [i|] eqn:F.
      * rewrite (find_index_some _ _ _ Hnd F). reflexivity.
      * rewrite (filter_notin _ _ (find_index_none _ _ F)). reflexivity.
  - eexists. split; [reflexivity|]. split; [repeat split; apply fire_fold_length|].
    intros j Hj. apply fire_fold_get; assumption.
  - set (s := get (e_heap st) id).
    destruct (s_running s && negb (s_incall s)) eqn:C;
      [destruct (s_active s) eqn:A; [destruct (s_pending s) as [|v rest] eqn:P|]|];
      (eexists; split; [reflexivity|]; split; [repeat split; apply upd_length|]; intros j Hj;
       cbn [e_heap]; rewrite ?get_upd by exact Hj;
       destruct (Nat.eqb_spec j id) as [->|_]; [fold s; rewrite C, ?A, ?P|]; reflexivity).
  - destruct (s_incall (get (e_heap st) id)) eqn:C;
      (eexists; split; [reflexivity|]; split; [repeat split; apply upd_length|]; intros j Hj;
       cbn [e_heap]; rewrite ?get_upd by exact Hj;
       destruct (Nat.eqb_spec j id) as [->|_]; [rewrite C|]; reflexivity).
Qed.

(* the premise is asked only of subscriptions that exist before the step: ASub creates [j = sp_next sp],
   whose old heap slot [s] is the default of [get] and is replaced whole *)
Lemma sub_ok_next sp a j s :
  (j < sp_next sp -> sub_ok (sp_fired sp) (memb j (sp_live sp)) s) ->
  j < sp_next (spec_step sp a) ->
  sub_ok (sp_fired (spec_step sp a)) (memb j (sp_live (spec_step sp a))) (sub_next sp a j s).
Proof.
  intros H Hj. destruct a as [|id|v|id|id]; cbn [spec_step sub_next sp_fired sp_live sp_next] in *.
  1: { rewrite memb_snoc. destruct (Nat.eqb_spec j (sp_next sp)) as [->|Hne].
       - rewrite orb_true_r. unfold sub_ok. cbn. rewrite skipn_all. repeat split; congruence || apply le_n.
       - rewrite orb_false_r. apply H. lia. }
  all: specialize (H Hj); pose proof H as (H1 & H2 & H3 & H4 & H5 & H6).
  - rewrite memb_filter. destruct (j =? id).
    + rewrite andb_false_r. unfold sub_ok. cbn. repeat split; try congruence; assumption.
    + rewrite andb_true_r. exact H.
  - rewrite <- H1. unfold sub_ok. rewrite app_length. destruct (s_active s) eqn:A; cbn; rewrite ?A.
    + repeat split; try congruence; auto; [|lia].
      intros _. rewrite app_assoc, H2, skipn_app, (proj2 (Nat.sub_0_le _ _) H6); reflexivity.
    + repeat split; try congruence; auto. lia.
  - destruct (j =? id); [|exact H]. cbn [andb].
    destruct (s_running s && negb (s_incall s)) eqn:C; [|exact H].
    apply andb_true_iff in C as [Cr Ci]. apply negb_true_iff in Ci.
    destruct (s_active s) eqn:A; [destruct (s_pending s) as [|v rest] eqn:P|];
      unfold sub_ok; cbn; rewrite ?A, ?P; repeat split; try congruence; auto.
    intros _. rewrite <- app_assoc. apply H2. reflexivity.
  - destruct (j =? id); [|exact H]. cbn [andb]. destruct (s_incall s) eqn:C; [|exact H].
    unfold sub_ok. cbn. repeat split; try congruence; auto.
Qed.

Lemma step_spec st a : Inv st -> exists st', step st a = Ok st' /\ Inv st' /\ effect st a st'.
Proof.
  intros HI. destruct (step_effect st a HI) as (st' & E & R & G). exists st'.
  split; [exact E|]. split; [|split; assumption].
  destruct R as (R1 & R2 & R3), HI as (Hnd & Hb & Hs). unfold Inv. rewrite R1, R2, R3. split; [|split].
  - destruct a; cbn; try exact Hnd; [|apply NoDup_filter, Hnd].
    apply (NoDup_Add (Add_app _ _ [])). rewrite app_nil_r. split; [exact Hnd|]. intros H. apply Hb in H. lia.
  - destruct a; cbn; try exact Hb; intros x H.
    + apply in_app_iff in H as [H|[<-|[]]]; [apply Hb in H|]; lia.
    + apply filter_In in H as [H _]. apply Hb, H.
  - intros j Hj. rewrite G by exact Hj. apply sub_ok_next; [apply Hs|exact Hj].
Qed.

Lemma step_inv st a : Inv st -> exists st', step st a = Ok st' /\ Inv st'.
Proof. intros HI. destruct (step_spec st a HI) as (st' & E & HI' & _). exists st'. auto. Qed.

Lemma run_from_bind t : forall r,
  fold_left (fun r a => res_bind r (fun s => step s a)) t r = res_bind r (fun st => run_from st t).
Proof.
  induction t as [|a t IH]; intros r; [destruct r; reflexivity|].
  cbn [fold_left]. rewrite IH. destruct r; [symmetry; apply IH|reflexivity|reflexivity].
Qed.

Lemma run_from_cons st a t : run_from st (a :: t) = res_bind (step st a) (fun st' => run_from st' t).
Proof. apply (run_from_bind t (step st a)). Qed.

Lemma run_from_app st t1 t2 : run_from st (t1 ++ t2) = res_bind (run_from st t1) (fun st' => run_from st' t2).
Proof. unfold run_from at 1. rewrite fold_left_app. apply run_from_bind. Qed.

Lemma run_from_refines t : forall st, Inv st ->
  exists st', run_from st t = Ok st' /\ Inv st' /\ rel st' (fold_left spec_step t (abs st)).
Proof.
  induction t as [|a t IH]; intros st HI.
  - exists st. split; [reflexivity|]. split; [exact HI|repeat split].
  - destruct (step_spec st a HI) as (st1 & E & HI1 & R & _). rewrite run_from_cons, E. cbn [fold_left res_bind].
    rewrite <- (rel_abs _ _ R). apply IH, HI1.
Qed.

(* Every trace runs to the end, keeps the invariant and refines the set model:
   unsubscribing in any order neither fails nor detaches anyone else. *)
Theorem run_refines t : exists st, run t = Ok st /\ Inv st /\ rel st (spec_run t).
Proof. exact (run_from_refines t e_init inv_init). Qed.

Lemma run_inv t st : run t = Ok st -> Inv st.
Proof. intros H. destruct (run_refines t) as (st' & E & HI & _). congruence. Qed.

(* The reference itself is the obvious one: the live set is "subscribed and
   not unsubscribed", fresh ids are never reused. *)

Lemma spec_step_live s a id :
  In id (sp_live (spec_step s a)) <->
  In id (sp_live s) /\ a <> AUnsub id \/ a = ASub /\ id = sp_next s.
Proof.
  destruct a as [|j|v|j|j]; cbn [spec_step sp_live];
    rewrite ?in_app_iff, ?filter_In, ?negb_true_iff, ?Nat.eqb_neq; cbn [In]; intuition congruence.
Qed.

Theorem spec_live_char t : forall s id,
  In id (sp_live (fold_left spec_step t s)) <->
  (In id (sp_live s) /\ ~ In (AUnsub id) t) \/
  (exists t1 t2, t = t1 ++ ASub :: t2 /\ id = sp_next (fold_left spec_step t1 s) /\ ~ In (AUnsub id) t2).
Proof.
  induction t as [|a t IH]; intros s id; cbn [fold_left].
  - split; [auto|]. intros [[H _]|(t1 & t2 & E & _)]; [exact H|destruct t1; discriminate].
  - rewrite IH, spec_step_live. split.
    + intros [[[[H Ha]|[-> ->]] Hn]|(t1 & t2 & -> & Hid & Hn)].
      * left. split; [exact H|]. intros [G|G]; [exact (Ha G)|exact (Hn G)].
      * right. exists [], t. auto.
      * right. exists (a :: t1), t2. auto.
    + intros [[H Hn]|(t1 & t2 & E & Hid & Hn)].
      * left. split; [left; split; [exact H|]|]; intros G; apply Hn; [left|right]; exact G.
      * destruct t1 as [|b t1]; injection E as -> ->.
        -- left. split; [right; auto|exact Hn].
        -- right. exists t1, t2. auto.
Qed.

(* No notification after unsubscribe: a subscription that is no longer active
   stays so, and its listener is never called again. *)

Lemma sub_next_frozen sp a j s :
  j < sp_next sp -> sub_ok (sp_fired sp) (memb j (sp_live sp)) s -> s_active s = false ->
  s_active (sub_next sp a j s) = false /\ s_log (sub_next sp a j s) = s_log s.
Proof.
  intros Hj (M & _) A. destruct a as [|id|v|id|id]; cbn [sub_next].
  - destruct (Nat.eqb_spec j (sp_next sp)); [lia|auto].
  - destruct (j =? id); auto.
  - rewrite <- M, A. auto.
  - rewrite A. destruct (_ && _); auto.
  - destruct (_ && _); auto.
Qed.

Lemma run_frozen t : forall st st' id,
  Inv st -> id < length (e_heap st) -> s_active (get (e_heap st) id) = false ->
  run_from st t = Ok st' -> s_log (get (e_heap st') id) = s_log (get (e_heap st) id).
Proof.
  induction t as [|a t IH]; intros st st' id HI Hid A H.
  - injection H as <-. reflexivity.
  - destruct (step_spec st a HI) as (st1 & E & HI1 & (_ & R & _) & G). rewrite run_from_cons, E in H.
    assert (Hid1 : id < sp_next (spec_step (abs st) a)) by (destruct a; cbn; lia).
    destruct (sub_next_frozen (abs st) a id _ Hid (proj2 (proj2 HI) id Hid) A) as (A1 & L1).
    rewrite <- (G id Hid1) in A1, L1. rewrite <- R in Hid1.
    rewrite <- L1. exact (IH st1 st' id HI1 Hid1 A1 H).
Qed.

Theorem no_late_notification t st st' id :
  Inv st -> id < length (e_heap st) -> run_from st (AUnsub id :: t) = Ok st' ->
  s_log (get (e_heap st') id) = s_log (get (e_heap st) id).
Proof.
  intros HI Hid H. destruct (step_spec st (AUnsub id) HI) as (st1 & E & HI1 & (_ & R & _) & G).
  rewrite run_from_cons, E in H. specialize (G id Hid). cbn [sub_next] in G. rewrite Nat.eqb_refl in G.
  rewrite (run_frozen t st1 st' id HI1); rewrite ?G, ?R; auto.
Qed.

(* A live listener has been handed exactly the values fired since it
   subscribed, in order, except those still pending; so once nothing is
   pending the last value it saw is the last one fired. *)

Lemma live_sub_ok st id : Inv st -> In id (e_subs st) ->
  id < length (e_heap st) /\ sub_ok (e_fired st) true (get (e_heap st) id).
Proof.
  intros (_ & Hb & Hs) Hin. pose proof (Hb id Hin) as Hid.
  apply memb_in in Hin. rewrite <- Hin. auto.
Qed.

Lemma sub_ok_latest fired s d :
  sub_ok fired true s -> s_pending s = [] -> s_since s < length fired ->
  last (s_log s) d = last fired d.
Proof.
  intros (A & E & _) P Hlt. rewrite <- (app_nil_r (s_log s)), <- P, (E A). apply last_skipn, Hlt.
Qed.

(* progress: whenever a live listener that is not inside a call has something
   pending, its delivery goroutine exists and its next iteration hands over
   the oldest pending value *)
Theorem deliver_progress (st : est) (id : nat) (v : Z) (rest : list Z) :
  Inv st -> In id (e_subs st) ->
  let s := get (e_heap st) id in
  s_pending s = v :: rest -> s_incall s = false ->
  exists st', step st (ADeliver id) = Ok st' /\
              s_log (get (e_heap st') id) = s_log s ++ [v] /\ s_pending (get (e_heap st') id) = rest.
Proof.
  intros HI Hin s P C. destruct (live_sub_ok st id HI Hin) as (Hid & A & _ & R & _). fold s in A, R.
  unfold step. fold s. rewrite R, C, A, P by (rewrite P; discriminate). cbn [andb negb].
  eexists. split; [reflexivity|]. cbn [e_heap]. rewrite get_upd, Nat.eqb_refl by exact Hid. auto.
Qed.
