(* The lockset discipline of Model/Race.v is the sharing discipline of Model/Discipline.v with every
   location that has a lock classed as guarded by it and every other one as read-only, and sound
   because that one is (Proofs/Discipline.v). *)
From Reservoir Require Import Base.Prelude Model.Sync Model.Race Model.Discipline Proofs.Discipline.

Lemma guarded_disc G C me : (forall x g, G x = Some g -> C x = CGuard g) ->
  forall p h, guarded G h p = true -> disc C me h p = true.
Proof.
  intros HG. induction p as [|l m k IH|l m k IH|l m a IHa b IHb|a IHa b IHb|x w k IH|k IH];
    intros h; cbn [guarded disc]; auto; intros H.
  - apply andb_true_iff in H as [H1 H2]. rewrite H1. apply IH, H2.
  - apply andb_true_iff in H as [H1 H2]. rewrite (IHa _ H1). apply IHb, H2.
  - apply andb_true_iff in H as [H1 H2]. rewrite (IHa _ H1). apply IHb, H2.
  - unfold acc_ok. destruct (G x) as [g|] eqn:Eg; [|discriminate]. rewrite (HG _ _ Eg).
    apply andb_true_iff in H as [H1 H2]. rewrite H1. apply IH, H2.
Qed.

Lemma guarded_disc_all G C : (forall x g, G x = Some g -> C x = CGuard g) ->
  forall ps i, forallb (guarded G []) ps = true -> disc_all C i ps = true.
Proof.
  intros HG. induction ps as [|p r IH]; simpl; intros i H; [reflexivity|].
  apply andb_true_iff in H as [Hp Hr]. rewrite (guarded_disc G C i HG p [] Hp). apply IH, Hr.
Qed.

Theorem lockset_sound G ps sched s' :
  forallb (guarded G []) ps = true -> rrun (rspawn ps) sched = Some s' -> has_race s' = false.
Proof.
  intros Hg.
  apply (discipline_sound (fun x => match G x with Some g => CGuard g | None => CReadOnly end)).
  apply (guarded_disc_all G); [|exact Hg]. intros x g ->. reflexivity.
Qed.
