(* Proofs over ALL request histories of Model/FreshHistory.v (induction over the step
   list): a response is served without contacting the origin only from an entry that an
   earlier GET stored from a storable 200 answer and that is still inside its lifetime
   (or inside the default lifetime after a 304 revalidation); HIT labels exactly those
   responses; and, conversely, a must-store answer is reused for its whole lifetime. *)
From Reservoir Require Import Base.Prelude Base.Strings Base.History Model.Freshness Model.FreshnessSpec
  Model.FreshHistory Proofs.Freshness.

Definition stored_by (ev0 : event) (e : entry) : Prop :=
  ev_meth ev0 = GET /\ ev_effect ev0 = EStored /\ r_contacted (ev_resp ev0) = true /\
  oa_status (ev_oa ev0) = 200 /\
  storable (ev_pol ev0) GET 200 (oa_hv (ev_oa ev0)) (ev_now ev0) = true /\
  e_version e = oa_version (ev_oa ev0) /\ e_stored_at e = ev_now ev0 /\ e_age e = oa_age (ev_oa ev0).

Definition renewed_by (ev1 : event) (e : entry) : Prop :=
  ev_meth ev1 = GET /\ ev_effect ev1 = ERenewed /\ r_contacted (ev_resp ev1) = true /\
  r_version (ev_resp ev1) = e_version e /\
  e_expires e = ev_now ev1 + default_age (ev_pol ev1).

(* what justifies the expiry instant of [e]: the event that stored it, or a later one that renewed it *)
Definition expiry_just (past : list event) (e : entry) : Prop :=
  (exists ev0, In ev0 past /\ stored_by ev0 e /\
               e_expires e = store_expiry (ev_pol ev0) (oa_hv (ev_oa ev0)) (ev_now ev0))
  \/ (exists ev1, In ev1 past /\ renewed_by ev1 e).

(* Where an entry comes from is kept apart from what justifies its expiry: a renewal replaces
   the second and must leave the first standing, and when both name a storing event it need not be
   the same one. *)
Definition entry_just (past : list event) (e : entry) : Prop :=
  (exists ev0, In ev0 past /\ stored_by ev0 e) /\ expiry_just past e.

Definition inv (s : hstate) (past : list event) : Prop :=
  match hs_entry s with
  | None => True
  | Some e => entry_just past e
  end.

Lemma entry_just_mono past more e : entry_just past e -> entry_just (past ++ more) e.
Proof.
  intros [(ev0 & Hin & Hs) Hx]. split.
  - exists ev0. auto using in_or_app.
  - destruct Hx as [(a & Hina & Ha)|(b & Hinb & Hb)]; [left; exists a|right; exists b]; auto using in_or_app.
Qed.

Definition reuse_ok (past : list event) (ev : event) : Prop :=
  r_contacted (ev_resp ev) = false ->
  exists e, entry_just past e /\ ev_meth ev = GET /\ ev_now ev <= e_expires e /\
            ev_resp ev = serve_entry HsHit 0 e (ev_now ev) false.

Definition label_ok (ev : event) : Prop :=
  r_label (ev_resp ev) = Some HsHit <-> r_contacted (ev_resp ev) = false.

Lemma fresh_le e now : fresh e now = true <-> now <= e_expires e.
Proof. unfold fresh. rewrite negb_true_iff, Z.ltb_ge. reflexivity. Qed.

Lemma full_answer_cases pol now st hs oa r304 st' resp eff :
  hs <> HsHit -> full_answer pol now st hs oa = (st', resp, eff) ->
  let ev := {| ev_pol := pol; ev_now := now; ev_meth := GET; ev_oa := oa; ev_r304 := r304;
               ev_resp := resp; ev_effect := eff |} in
  r_contacted resp = true /\ r_label resp <> Some HsHit /\
  (st' = st \/ exists e', st' = Some e' /\ stored_by ev e' /\
                          e_expires e' = store_expiry pol (oa_hv oa) now).
Proof.
  intros Hhs. unfold full_answer. destruct (storable pol GET _ _ now) eqn:Est; intros H; inversion H; subst; simpl.
  - destruct (storable_status _ _ _ _ _ Est) as [H200 _]. rewrite H200 in Est.
    split; [reflexivity|]. split; [congruence|]. right. eexists. split; [reflexivity|].
    unfold stored_by. simpl. auto 10.
  - split; [reflexivity|]. split; [destruct (is_2xx (oa_status oa)); congruence|auto].
Qed.

(* One request: either a hit - a GET that finds a fresh entry, answers from it and changes nothing -
   or the origin is contacted, the response is not labelled HIT, and the entry afterwards is the one
   before, that one renewed, or a new one stored from the answer. *)
Lemma request_cases s m oa r304 s' ev :
  step s (Request m oa r304) = (s', Some ev) ->
  (exists e, hs_entry s = Some e /\ fresh e (hs_now s) = true /\ m = GET /\ s' = s /\
             ev_meth ev = GET /\ ev_now ev = hs_now s /\
             ev_resp ev = serve_entry HsHit 0 e (hs_now s) false)
  \/ r_contacted (ev_resp ev) = true /\ r_label (ev_resp ev) <> Some HsHit /\
     (hs_entry s' = hs_entry s
      \/ (exists e, hs_entry s = Some e /\
                    let e' := renew e (hs_now s + default_age (hs_pol s)) in
                    hs_entry s' = Some e' /\ renewed_by ev e')
      \/ (exists e', hs_entry s' = Some e' /\ stored_by ev e' /\
                     e_expires e' = store_expiry (ev_pol ev) (oa_hv (ev_oa ev)) (ev_now ev))).
Proof.
  simpl. destruct (is_get m) eqn:Eg.
  - destruct m; try discriminate Eg. unfold get_step.
    destruct (hs_entry s) as [e|] eqn:Ee; [destruct (fresh e (hs_now s)) eqn:Ef; [|destruct (r304 || _)]|].
    1: { intros H. inversion H; subst. left. exists e. destruct s; simpl in *. subst. auto 10. }
    1: { intros H. inversion H; subst. right. simpl. split; [reflexivity|]. split; [discriminate|].
         right. left. exists e. unfold renewed_by. simpl. auto 10. }
    (* stale without a 304, or no entry: the origin's full answer arrives *)
    all: destruct (full_answer _ _ _ _ _) as [[st' resp] eff] eqn:Efa.
    all: apply (full_answer_cases _ _ _ _ _ r304) in Efa as (Hc & Hl & Hst); [|discriminate].
    all: intros H; inversion H; subst; right; simpl; tauto.
  - unfold other_step. intros H. inversion H; subst. simpl. right.
    split; [reflexivity|]. split; [destruct (is_2xx (oa_status oa)); congruence|auto].
Qed.

Theorem expiry_forces_contact s m oa r304 s' ev :
  step s (Request m oa r304) = (s', Some ev) ->
  r_contacted (ev_resp ev) = false ->
  exists e, hs_entry s = Some e /\ hs_now s <= e_expires e /\ m = GET /\ s' = s.
Proof.
  intros Hstep Hc. destruct (request_cases _ _ _ _ _ _ Hstep) as [(e & He & Hf & Hm & Hs & _)|[Hc' _]].
  - exists e. apply fresh_le in Hf. auto.
  - congruence.
Qed.

Lemma step_inv s x s' oev past :
  inv s past -> step s x = (s', oev) ->
  match oev with
  | None => inv s' past
  | Some ev => reuse_ok past ev /\ label_ok ev /\ inv s' (past ++ [ev])
  end.
Proof.
  intros Hinv Hstep. destruct x as [d|p|m oa r304]; [inversion Hstep; subst; exact Hinv..|].
  assert (exists ev, oev = Some ev) as [ev ->]
    by (simpl in Hstep; destruct (if is_get m then _ else _) as [[? ?] ?]; inversion Hstep; eauto).
  unfold inv, reuse_ok, label_ok in *.
  destruct (request_cases _ _ _ _ _ _ Hstep) as [(e & He & Hf & _ & -> & Hm & Hn & ->)|(Hc & Hl & Hent)].
  - rewrite He in *. apply fresh_le in Hf. rewrite Hn. split; [eauto 6|]. split; [simpl; tauto|].
    apply entry_just_mono, Hinv.
  - split; [congruence|]. split; [split; [contradiction|congruence]|].
    destruct Hent as [->|[(e & He & He' & Hren)|(e' & -> & Hsb & Hexp)]].
    + destruct (hs_entry s); [apply entry_just_mono, Hinv|exact I].
    + rewrite He in Hinv. rewrite He'. destruct Hinv as [(ev0 & Hin & Hs) _]. split.
      * exists ev0. split; [apply in_or_app; auto|exact Hs].
      * right. exists ev. split; [apply in_or_app; simpl; auto|exact Hren].
    + assert (In ev (past ++ [ev])) by (apply in_or_app; simpl; auto). split; [|left]; eauto.
Qed.

Lemma run_ok h : forall s past,
  inv s past ->
  forall evs1 ev evs2, fst (run s h) = evs1 ++ ev :: evs2 ->
  reuse_ok (past ++ evs1) ev /\ label_ok ev.
Proof.
  apply (trace_ind step inv (fun past ev => reuse_ok past ev /\ label_ok ev)).
  intros s past x Hinv. pose proof (step_inv s x _ _ past Hinv (surjective_pairing _)) as H.
  destruct (step s x) as [s' [ev|]]; simpl in H; tauto.
Qed.

(* Everything C03 and C04 say about a response that did not reach the origin. *)
Theorem hist_reuse pol0 now0 h evs1 ev evs2 :
  events (init_state pol0 now0) h = evs1 ++ ev :: evs2 ->
  r_contacted (ev_resp ev) = false ->
  exists ev0 exp,
    In ev0 evs1 /\ ev_meth ev0 = GET /\ oa_status (ev_oa ev0) = 200 /\
    r_contacted (ev_resp ev0) = true /\ ev_effect ev0 = EStored /\
    storable (ev_pol ev0) GET 200 (oa_hv (ev_oa ev0)) (ev_now ev0) = true /\
    ev_meth ev = GET /\
    ev_resp ev = {| r_status := 200; r_version := oa_version (ev_oa ev0); r_label := Some HsHit;
                    r_cs := Some (make_cache_status HsHit 0 true exp (ev_now ev));
                    r_age := Some (current_age (Some (ev_now ev0)) (oa_age (ev_oa ev0)) (ev_now ev0) (ev_now ev));
                    r_contacted := false |} /\
    ev_now ev <= exp /\
    (exp = store_expiry (ev_pol ev0) (oa_hv (ev_oa ev0)) (ev_now ev0)
     \/ exists ev1, In ev1 evs1 /\ ev_meth ev1 = GET /\ ev_effect ev1 = ERenewed /\
                    r_contacted (ev_resp ev1) = true /\
                    r_version (ev_resp ev1) = oa_version (ev_oa ev0) /\
                    exp = ev_now ev1 + default_age (ev_pol ev1)).
Proof.
  intros Hrun Hc.
  destruct (run_ok h (init_state pol0 now0) [] I evs1 ev evs2 Hrun) as [Hr _].
  destruct (Hr Hc) as (e & [(ev0 & Hin0 & Hs0) Hx] & Hm & Hle & Hresp).
  (* the storing event to name is the one the expiry comes from, unless a renewal set it *)
  assert (exists eva, In eva evs1 /\ stored_by eva e /\
            (e_expires e = store_expiry (ev_pol eva) (oa_hv (ev_oa eva)) (ev_now eva)
             \/ exists ev1, In ev1 evs1 /\ renewed_by ev1 e)) as (eva & Hin & Hs & Hexp)
    by (destruct Hx as [(a & Hina & Ha & Hexp)|Hb]; [exists a|exists ev0]; auto).
  destruct Hs as (H1 & H2 & H3 & H4 & H5 & Hv & Hat & Hag).
  exists eva, (e_expires e). rewrite Hresp. unfold serve_entry, entry_age. rewrite Hv, Hat, Hag.
  repeat (split; [solve [auto]|]).
  destruct Hexp as [Hexp|(ev1 & Hin1 & R1 & R2 & R3 & R4 & R5)]; [left; exact Hexp|right].
  exists ev1. rewrite <- Hv. auto 10.
Qed.

Theorem hist_label pol0 now0 h evs1 ev evs2 :
  events (init_state pol0 now0) h = evs1 ++ ev :: evs2 ->
  (r_label (ev_resp ev) = Some HsHit <-> r_contacted (ev_resp ev) = false).
Proof.
  intros Hrun. exact (proj2 (run_ok h (init_state pol0 now0) [] I evs1 ev evs2 Hrun)).
Qed.

(* in reference terms: the reuse happens inside the lifetime the property prescribes *)
Theorem hist_reuse_spec pol0 now0 h evs1 ev evs2 :
  events (init_state pol0 now0) h = evs1 ++ ev :: evs2 ->
  r_contacted (ev_resp ev) = false ->
  exists ev0,
    In ev0 evs1 /\ ev_meth ev0 = GET /\ oa_status (ev_oa ev0) = 200 /\ r_contacted (ev_resp ev0) = true /\
    ev_meth ev = GET /\ r_status (ev_resp ev) = 200 /\ r_version (ev_resp ev) = oa_version (ev_oa ev0) /\
    (zero_time < ev_now ev0 -> may_store (ev_pol ev0) GET 200 (oa_hv (ev_oa ev0)) (ev_now ev0) = true) /\
    ((zero_time < ev_now ev0 ->
      force_default (ev_pol ev0) = true \/ ascii_header (oa_hv (ev_oa ev0)) = true ->
      ev_now ev - ev_now ev0 <= lifetime_upper (ev_pol ev0) (oa_hv (ev_oa ev0)) (ev_now ev0))
     \/ exists ev1, In ev1 evs1 /\ ev_meth ev1 = GET /\ r_contacted (ev_resp ev1) = true /\
                    r_version (ev_resp ev1) = r_version (ev_resp ev) /\
                    ev_now ev - ev_now ev1 <= default_age (ev_pol ev1)).
Proof.
  intros Hrun Hc.
  destruct (hist_reuse pol0 now0 h evs1 ev evs2 Hrun Hc)
    as (ev0 & exp & Hin & Hm0 & H200 & Hc0 & _ & Hst & Hm & Hresp & Hle & Hexp).
  exists ev0. rewrite Hresp. cbn [r_status r_version].
  repeat (split; [solve [auto]|]). split.
  - intros Hz. apply storable_only_if; assumption.
  - destruct Hexp as [->|(ev1 & Hin1 & Hm1 & _ & Hc1 & Hv1 & ->)].
    + left. intros Hz Hj. pose proof (lifetime_upper_bound (ev_pol ev0) (oa_hv (ev_oa ev0)) (ev_now ev0) Hz Hj). lia.
    + right. exists ev1. repeat (split; [solve [auto]|]). lia.
Qed.

Fixpoint total_advance (h : list hstep) : Z :=
  match h with
  | [] => 0
  | Advance d :: r => d + total_advance r
  | _ :: r => total_advance r
  end.

Definition forward (x : hstep) : Prop := match x with Advance d => 0 <= d | _ => True end.

(* a GET among the events is answered from the cache with version [v]; other methods are not constrained *)
Definition is_hit_of (v : Z) (ev : event) : Prop :=
  is_get (ev_meth ev) = true ->
  r_contacted (ev_resp ev) = false /\ r_version (ev_resp ev) = v /\
  r_status (ev_resp ev) = 200 /\ r_label (ev_resp ev) = Some HsHit.

Lemma total_advance_nonneg cont : Forall forward cont -> 0 <= total_advance cont.
Proof. induction 1 as [|[d|p|m oa r304] l Hx _ IH]; simpl in *; lia. Qed.

Lemma quiet_hits cont : forall s e,
  hs_entry s = Some e -> Forall forward cont ->
  hs_now s + total_advance cont <= e_expires e ->
  Forall (is_hit_of (e_version e)) (events s cont).
Proof.
  induction cont as [|x cont IH]; intros s e He Hf Hle; [constructor|].
  inversion Hf as [|? ? Hx Hf']; subst. pose proof (total_advance_nonneg cont Hf') as Htot.
  change (events s (x :: cont)) with (trace step s (x :: cont)). rewrite trace_cons.
  change (trace step) with events. destruct x as [d|p|m oa r304]; simpl in *.
  - apply (IH _ e); simpl; auto. lia.
  - apply (IH _ e); auto.
  - unfold get_step, other_step. rewrite He, (proj2 (fresh_le e (hs_now s))) by lia.
    destruct (is_get m) eqn:Eg; simpl; (constructor; [|apply (IH _ e); auto]).
    + intros _. simpl. auto.
    + intros Hg. simpl in Hg. congruence.
Qed.

(* the origin's full answer is what the step gets to decide on: nothing is stored, or the entry has
   run out and the origin does not answer 304 *)
Definition answer_arrives (s : hstate) (r304 : bool) : Prop :=
  hs_entry s = None \/
  exists e, hs_entry s = Some e /\ fresh e (hs_now s) = false /\ r304 = false.

Theorem hist_converse s oa r304 s' oev :
  answer_arrives s r304 ->
  must_store (hs_pol s) GET (oa_status oa) (oa_hv oa) (hs_now s) = true ->
  step s (Request GET oa r304) = (s', oev) ->
  exists ev, oev = Some ev /\
    r_contacted (ev_resp ev) = true /\ r_status (ev_resp ev) = 200 /\
    r_version (ev_resp ev) = oa_version oa /\ ev_effect ev = EStored /\
    forall cont, Forall forward cont ->
      hs_now s + total_advance cont <= store_expiry (hs_pol s) (oa_hv oa) (hs_now s) ->
      Forall (is_hit_of (oa_version oa)) (events s' cont).
Proof.
  intros Harr Hms Hstep.
  pose proof (storable_converse _ _ _ _ _ Hms) as Hst.
  destruct (storable_status _ _ _ _ _ Hst) as [H200 _].
  set (e' := new_entry (hs_pol s) (hs_now s) oa).
  assert (exists hs, get_step (hs_pol s) (hs_now s) (hs_entry s) oa r304
                     = (Some e', serve_entry hs 200 e' (hs_now s) true, EStored)) as [hs Hfull].
  { unfold get_step, full_answer. rewrite Hst, H200. destruct Harr as [->|(e & -> & -> & ->)]; eexists; reflexivity. }
  simpl in Hstep. rewrite Hfull in Hstep. inversion Hstep; subst s' oev.
  eexists. split; [reflexivity|]. simpl. repeat (split; [reflexivity|]).
  intros cont Hf Hle. apply (quiet_hits cont _ e'); [reflexivity|exact Hf|exact Hle].
Qed.

(* the same in reference terms: reuse for the whole prescribed lifetime *)
Theorem hist_converse_spec s oa r304 s' oev cont :
  answer_arrives s r304 ->
  must_store (hs_pol s) GET (oa_status oa) (oa_hv oa) (hs_now s) = true ->
  step s (Request GET oa r304) = (s', oev) ->
  force_default (hs_pol s) = true \/ ascii_header (oa_hv oa) = true ->
  Forall forward cont ->
  total_advance cont < lifetime_lower (hs_pol s) (oa_hv oa) (hs_now s) ->
  Forall (is_hit_of (oa_version oa)) (events s' cont).
Proof.
  intros Harr Hms Hstep Hj Hf Hlt.
  destruct (hist_converse s oa r304 s' oev Harr Hms Hstep) as (ev & _ & _ & _ & _ & _ & Hall).
  apply Hall; [exact Hf|]. pose proof (total_advance_nonneg cont Hf) as Htot.
  pose proof (lifetime_lower_bound (hs_pol s) (oa_hv oa) (hs_now s) Hj ltac:(lia)). lia.
Qed.
