(* C07, C16 — proofs about the Range header parser and the answers built on it (Model/Range.v). *)
From Reservoir Require Import Base.Prelude Base.Strings Model.Range.
From Coq Require Import ZifyBool.

Lemma pn_loop_bounds s : forall i num index n idx,
  pn_loop s i num index = Some (n, idx) -> index <= idx <= index + zlen s.
Proof.
  induction s as [|ch rest IH]; intros i num index n idx H; cbn [pn_loop] in H.
  - injection H as _ <-. change (zlen []) with 0. lia.
  - rewrite zlen_cons. pose proof (zlen_nonneg rest).
    destruct (_ || _).
    + apply IH in H. lia.
    + destruct (_ || _).
      * destruct (i =? 0); [discriminate|]. injection H as _ <-. lia.
      * destruct (_ <? num); [discriminate|]. apply IH in H. lia.
Qed.

Lemma parse_number_bounds s n idx :
  parse_number s = Some (n, idx) -> 0 <= idx <= zlen s.
Proof.
  unfold parse_number. destruct s as [|c r]; [discriminate|].
  destruct (c =? 45); [discriminate|]. intros H. apply pn_loop_bounds in H. lia.
Qed.

Lemma index_at_ok s i : 0 <= i < zlen s -> exists c, index_at s i = Ok c.
Proof.
  unfold index_at, zlen. intros H.
  destruct (i <? 0) eqn:E; [lia|].
  destruct (nth_error s (Z.to_nat i)) eqn:N; [eauto|].
  apply nth_error_None in N. lia.
Qed.

Lemma slice_from_ok s i : 0 <= i <= zlen s -> slice_from s i = Ok (zskipn i s).
Proof.
  unfold slice_from. intros H.
  destruct ((i <? 0) || (zlen s <? i)) eqn:E; [lia|reflexivity].
Qed.

Theorem parse_range_no_panic s : parse_range s <> Panic.
Proof.
  unfold parse_range.
  destruct (split_eq s) as [[unit values]|]; [|discriminate].
  destruct (negb (str_eqb unit bytes_lit)); [discriminate|].
  destruct (str_eqb values []) eqn:L; [discriminate|]. apply str_eqb_neq, nonempty_zlen in L.
  destruct (index_at_ok values 0 ltac:(lia)) as [c0 ->]. cbn [res_bind].
  destruct (c0 =? 45).
  - rewrite slice_from_ok by lia. cbn [res_bind].
    destruct (parse_number (zskipn 1 values)) as [[n t]|] eqn:P; [|discriminate].
    apply parse_number_bounds in P. rewrite zlen_skipn in P by lia.
    destruct (t + 1 <? zlen values) eqn:Sm; [|discriminate].
    destruct (index_at_ok values (t + 1) ltac:(lia)) as [c ->]. cbn [res_bind].
    destruct (c =? 44); [discriminate|]. destruct (c =? 45); discriminate.
  - destruct (parse_number values) as [[st t]|] eqn:P; [|discriminate].
    apply parse_number_bounds in P.
    destruct (zlen values <=? t) eqn:G1; [discriminate|].
    destruct (index_at_ok values t ltac:(lia)) as [c ->]. cbn [res_bind].
    destruct (negb (c =? 45)); [discriminate|].
    destruct (zlen values <=? t + 1) eqn:G2; [discriminate|].
    rewrite slice_from_ok by lia. cbn [res_bind].
    destruct (parse_number (zskipn (t + 1) values)) as [[e t2]|] eqn:P2; [|discriminate].
    apply parse_number_bounds in P2. rewrite zlen_skipn in P2 by lia.
    destruct (t2 + t + 1 <? zlen values) eqn:G3; [|discriminate].
    destruct (index_at_ok values (t2 + t + 1) ltac:(lia)) as [c2 ->]. cbn [res_bind].
    destruct (c2 =? 44); discriminate.
Qed.

Lemma validate_range_iff a b size : validate_range a b size = true <-> 0 <= a <= b /\ b < size.
Proof. unfold validate_range. lia. Qed.

Lemma slice_size_inside r size a b :
  slice_size r size = Some (a, b) -> 0 <= a /\ a <= b /\ b < size.
Proof.
  unfold slice_size. destruct r as [s e].
  destruct ((e =? -1) && (s =? -1)); [discriminate|].
  destruct (if s =? -1 then _ else _) as [a' b'].
  destruct (validate_range a' b' size) eqn:V; [|discriminate].
  intros H; injection H as <- <-. apply validate_range_iff in V. lia.
Qed.

Definition if_range_differs (ir : if_range) (st : stored) : bool :=
  match ir with
  | IRNone => false
  | IRTag t => negb (str_eqb t (st_etag st))
  | IRTime t => negb (t =? st_lastmod st)
  end.

Lemma range_answer_partial retry rng ir st a b len :
  range_answer retry rng ir st = Partial a b len ->
  exists r, rng = Some r /\ slice_size r (st_size st) = Some (a, b) /\
            if_range_differs ir st = false /\ len = b - a + 1.
Proof.
  unfold range_answer. fold (if_range_differs ir st). destruct rng as [r|]; [|discriminate].
  destruct (slice_size r (st_size st)) as [[a' b']|] eqn:S; [|destruct retry; discriminate].
  destruct (if_range_differs ir st); [discriminate|].
  intros H; injection H as <- <- <-. exists r. auto.
Qed.

Theorem range_answer_outcomes retry rng ir st :
  match range_answer retry rng ir st with
  | Partial _ _ _ => True
  | Refuse416 sz => sz = st_size st /\ retry = false
  | Full s => s = 200
  | APanic => False
  end.
Proof.
  unfold range_answer. destruct rng as [r|]; [|reflexivity].
  destruct (slice_size r (st_size st)) as [[a b]|].
  - fold (if_range_differs ir st). destruct (if_range_differs ir st); [reflexivity|exact I].
  - destruct retry; [reflexivity|split; reflexivity].
Qed.

(* An If-Range that does not match the stored validator never yields a 206: what is not
   the full 200 is then the 416 of an unsatisfiable range (the range is examined first). *)
Theorem if_range_mismatch retry rng ir st :
  if_range_differs ir st = true -> range_answer retry rng ir st <> Full 200 ->
  exists sz, range_answer retry rng ir st = Refuse416 sz.
Proof.
  intros Hm Hf. pose proof (range_answer_outcomes retry rng ir st) as R.
  destruct (range_answer retry rng ir st) eqn:E.
  - apply range_answer_partial in E as (_ & _ & _ & E & _). congruence.
  - eauto.
  - subst. contradiction.
  - contradiction.
Qed.

Lemma range_answer_no_panic retry rng ir st : range_answer retry rng ir st <> APanic.
Proof.
  intros E. pose proof (range_answer_outcomes retry rng ir st) as R. rewrite E in R. exact R.
Qed.

Theorem serve_range_no_panic retry hdr ir st : serve_range retry hdr ir st <> APanic.
Proof.
  unfold serve_range, header_range. pose proof (parse_range_no_panic hdr) as NP.
  destruct (parse_range hdr); [apply range_answer_no_panic..|contradiction].
Qed.

Lemma section_length body a len :
  0 <= a -> 0 <= len -> a + len <= zlen body -> zlen (section body a len) = len.
Proof.
  unfold section, zfirstn, zskipn, zlen. intros Ha Hl Hb.
  rewrite firstn_length_le, Z2Nat.id by (rewrite ?skipn_length; lia). reflexivity.
Qed.

Lemma section_nth body a len i d :
  0 <= a -> (i < Z.to_nat len)%nat ->
  nth i (section body a len) d = nth (Z.to_nat a + i) body d.
Proof.
  unfold section, zfirstn, zskipn. intros Ha Hi.
  rewrite nth_firstn_lt by assumption. apply nth_skipn_add.
Qed.

Definition fits (z : Z) : bool := z <=? max_int64.

(* Go's guard against overflow, (MaxInt64 - digit) / 10 < num, says that the next
   accumulator value does not fit. *)
Lemma overflow_test num d : ((max_int64 - d) / 10 <? num) = negb (fits (num * 10 + d)).
Proof. unfold fits. generalize max_int64. intros m. Z.div_mod_to_equations. lia. Qed.

Lemma pn_loop_digit c rest i num index :
  is_digit c = true ->
  pn_loop (c :: rest) i num index =
    if fits (num * 10 + (c - 48)) then pn_loop rest (i + 1) (num * 10 + (c - 48)) (index + 1)
    else None.
Proof.
  intros Hc. apply is_digit_range in Hc. cbn [pn_loop].
  replace ((c =? 32) || (c =? 9)) with false by lia.
  replace ((c <? 48) || (57 <? c)) with false by lia.
  rewrite overflow_test. destruct (fits _); reflexivity.
Qed.

Lemma pn_loop_digits d : forall t i num index,
  all_digits d = true -> 0 <= num -> fits num = true ->
  pn_loop (d ++ t) i num index =
    if fits (dec_acc num d)
    then pn_loop t (i + zlen d) (dec_acc num d) (index + zlen d) else None.
Proof.
  induction d as [|c d IH]; intros t i num index Hd Hnum Hfit.
  - cbn [app dec_acc]. change (zlen []) with 0. rewrite Hfit, !Z.add_0_r. reflexivity.
  - cbn [all_digits forallb] in Hd. apply andb_true_iff in Hd as [Hc Hd].
    cbn [app dec_acc]. rewrite (pn_loop_digit c _ i num index Hc). apply is_digit_range in Hc.
    assert (Hnum' : 0 <= num * 10 + (c - 48)) by (clear - Hnum Hc; lia).
    destruct (fits (num * 10 + (c - 48))) eqn:Eov.
    + rewrite IH, zlen_cons, (Z.add_comm (zlen d) 1), !Z.add_assoc by assumption. reflexivity.
    + (* the accumulator only grows *)
      pose proof (dec_acc_mono d _ Hd Hnum') as Hm.
      replace (fits (dec_acc _ d)) with false by (clear - Eov Hm; unfold fits in *; lia).
      reflexivity.
Qed.

(* After at least one character the loop stops at the end of the string or at a dash. *)
Lemma pn_loop_stop t i num index :
  hd 45 t = 45 -> i <> 0 -> pn_loop t i num index = Some (num, index).
Proof.
  intros Ht Hi. destruct t as [|c r]; [reflexivity|]. cbn [hd] in Ht. subst c.
  (* the tests on the dash itself compute: neither a blank nor a digit *)
  change (pn_loop (45 :: r) i num index) with (if i =? 0 then None else Some (num, index)).
  apply Z.eqb_neq in Hi. rewrite Hi. reflexivity.
Qed.

(* 1*DIGIT *)
Definition digits (d : str) : Prop := d <> [] /\ all_digits d = true.

Lemma digits_zlen d : digits d -> 1 <= zlen d.
Proof. intros [H _]. apply nonempty_zlen, H. Qed.

Lemma digits_nonneg d : digits d -> 0 <= dec_value d.
Proof. intros [_ H]. apply dec_value_nonneg, H. Qed.

(* a value part that starts with a digit takes the parser's second branch *)
Lemma digits_head d t :
  digits d ->
  str_eqb (d ++ t) [] = false /\ exists c, index_at (d ++ t) 0 = Ok c /\ (c =? 45) = false.
Proof.
  intros [Hn H]. destruct d as [|c d]; [contradiction|].
  cbn [all_digits forallb] in H. apply andb_true_iff in H as [Hc _]. apply is_digit_range in Hc.
  split; [reflexivity|]. exists c. split; [reflexivity|lia].
Qed.

Lemma parse_number_digits d t :
  digits d -> hd 45 t = 45 ->
  parse_number (d ++ t) = if fits (dec_value d) then Some (dec_value d, zlen d) else None.
Proof.
  intros Hd Ht. destruct (digits_head d t Hd) as (_ & c & Ec & E45). destruct Hd as [Hn Hd].
  unfold parse_number. destruct (d ++ t) as [|c' r] eqn:E; [discriminate|].
  injection Ec as ->. rewrite E45, <- E, pn_loop_digits by (assumption || reflexivity).
  destruct (fits _); [|reflexivity].
  apply pn_loop_stop; [exact Ht|]. destruct d; [contradiction|discriminate].
Qed.

Lemma parse_number_all_digits d :
  digits d ->
  parse_number d = if fits (dec_value d) then Some (dec_value d, zlen d) else None.
Proof.
  intros Hd. pose proof (parse_number_digits d [] Hd eq_refl) as H. rewrite app_nil_r in H. exact H.
Qed.

Lemma span_digits_spec s : forall d t, span_digits s = (d, t) ->
  s = d ++ t /\ all_digits d = true.
Proof.
  induction s as [|c r IH]; intros d t H; cbn [span_digits] in H.
  - injection H as <- <-. auto.
  - destruct (is_digit c) eqn:Ec.
    + destruct (span_digits r) as [d' t'] eqn:Er. injection H as <- <-.
      destruct (IH d' t' eq_refl) as (-> & Hd).
      split; [reflexivity|]. cbn [all_digits forallb]. rewrite Ec. exact Hd.
    + injection H as <- <-. auto.
Qed.

(* The three shapes of the value part that wellformed_spec accepts. *)
Inductive wf_values : str -> spec -> Prop :=
| WfSuffix d : digits d -> wf_values (45 :: d) (SSuffix (dec_value d))
| WfFrom d : digits d -> wf_values (d ++ [45]) (SFrom (dec_value d))
| WfFromTo d e : digits d -> digits e ->
    wf_values (d ++ 45 :: e) (SFromTo (dec_value d) (dec_value e)).

Lemma wellformed_spec_inv s sp :
  wellformed_spec s = Some sp ->
  exists unit values,
    split_eq s = Some (unit, values) /\ str_eqb unit bytes_lit = true /\ wf_values values sp.
Proof.
  unfold wellformed_spec.
  destruct (split_eq s) as [[unit values]|]; [|discriminate].
  destruct (str_eqb unit bytes_lit) eqn:Eu; [|discriminate]. cbn [negb]. intros H.
  exists unit, values. split; [reflexivity|]. split; [exact Eu|].
  destruct values as [|c r]; [discriminate|]. destruct (c =? 45) eqn:Ec.
  - apply Z.eqb_eq in Ec. subst c.
    destruct (span_digits r) as [d t] eqn:Sp. apply span_digits_spec in Sp as (-> & Hd).
    destruct d; [discriminate|]. destruct t; [|discriminate]. injection H as <-.
    rewrite app_nil_r. constructor. split; [discriminate|exact Hd].
  - destruct (span_digits (c :: r)) as [d t] eqn:Sp. apply span_digits_spec in Sp as (-> & Hd).
    destruct d as [|d0 d]; [discriminate|]. destruct t as [|dash r2]; [discriminate|].
    destruct (dash =? 45) eqn:Ed; [|discriminate]. apply Z.eqb_eq in Ed. subst dash.
    assert (Hd' : digits (d0 :: d)) by (split; [discriminate|exact Hd]).
    destruct r2 as [|x r2]; [injection H as <-; constructor; exact Hd'|].
    destruct (span_digits (x :: r2)) as [e t2] eqn:Sp2.
    apply span_digits_spec in Sp2 as (-> & He).
    destruct e; [discriminate|]. destruct t2; [|discriminate]. injection H as <-.
    rewrite app_nil_r. constructor; [exact Hd'|split; [discriminate|exact He]].
Qed.

(* What the parser returns on each well-formed spec: the pair it hands on (-1 = absent),
   provided every number fits an int64. *)
Definition spec_range (sp : spec) : Z * Z :=
  match sp with SSuffix n => (-1, n) | SFrom a => (a, -1) | SFromTo a b => (a, b) end.
Definition spec_fits (sp : spec) : bool :=
  match sp with SSuffix n => fits n | SFrom a => fits a | SFromTo a b => fits a && fits b end.
Definition spec_nonneg (sp : spec) : Prop :=
  match sp with SSuffix n => 0 <= n | SFrom a => 0 <= a | SFromTo a b => 0 <= a /\ 0 <= b end.

Lemma wellformed_nonneg s sp : wellformed_spec s = Some sp -> spec_nonneg sp.
Proof.
  intros H. apply wellformed_spec_inv in H as (_ & values & _ & _ & W).
  destruct W; cbn; auto using digits_nonneg.
Qed.

Lemma index_at_app_mid (d : str) c r : index_at (d ++ c :: r) (zlen d) = Ok c.
Proof.
  unfold index_at, zlen. destruct (Z.of_nat (length d) <? 0) eqn:E; [lia|].
  rewrite Nat2Z.id, nth_error_app2, Nat.sub_diag by lia. reflexivity.
Qed.

Theorem parse_range_wellformed s sp :
  wellformed_spec s = Some sp ->
  parse_range s = if spec_fits sp then Ok (spec_range sp) else Err.
Proof.
  intros H. apply wellformed_spec_inv in H as (unit & values & Hs & Hu & W).
  unfold parse_range. rewrite Hs, Hu. clear Hs Hu. cbn [negb].
  destruct W as [d Hd|d Hd|d e Hd He]; cbn [spec_fits spec_range].
  - change (str_eqb (45 :: d) []) with false. change (index_at (45 :: d) 0) with (Ok (A:=Z) 45).
    cbn [res_bind]. change (45 =? 45) with true. cbn match.
    pose proof (digits_zlen d Hd) as L. rewrite zlen_cons, slice_from_ok by (rewrite zlen_cons; lia).
    change (zskipn 1 (45 :: d)) with d. cbn [res_bind].
    rewrite parse_number_all_digits by assumption.
    destruct (fits (dec_value d)); [|reflexivity]. rewrite Z.ltb_irrefl. reflexivity.
  - destruct (digits_head d [45] Hd) as (-> & c & -> & Ec). cbn [res_bind]. rewrite Ec.
    rewrite parse_number_digits by auto.
    destruct (fits (dec_value d)); [|reflexivity].
    pose proof (digits_zlen d Hd) as L. rewrite zlen_app. change (zlen [45]) with 1.
    replace (_ <=? zlen d) with false by lia.
    rewrite index_at_app_mid. cbn [res_bind]. change (negb (45 =? 45)) with false. cbn match.
    rewrite Z.leb_refl. reflexivity.
  - destruct (digits_head d (45 :: e) Hd) as (-> & c & -> & Ec). cbn [res_bind]. rewrite Ec.
    rewrite parse_number_digits by auto.
    destruct (fits (dec_value d)); [|reflexivity]. cbn [andb].
    pose proof (digits_zlen d Hd) as L1. pose proof (digits_zlen e He) as L2.
    rewrite zlen_app, zlen_cons.
    replace (_ <=? zlen d) with false by lia.
    rewrite index_at_app_mid. cbn [res_bind]. change (negb (45 =? 45)) with false. cbn match.
    replace (_ <=? zlen d + 1) with false by lia.
    rewrite slice_from_ok by (rewrite zlen_app, zlen_cons; lia). cbn [res_bind].
    rewrite zskipn_app_cons, parse_number_all_digits by assumption.
    destruct (fits (dec_value e)); [|reflexivity].
    replace (_ <? _) with false by lia. reflexivity.
Qed.

(* SliceSize on what the parser hands on is the slice RFC 9110 assigns, when that lies inside. *)
Lemma slice_size_of_spec sp size :
  spec_nonneg sp -> spec_fits sp = true -> 0 <= size <= max_int64 ->
  slice_size (spec_range sp) size =
    let '(a, b) := spec_slice sp size in if validate_range a b size then Some (a, b) else None.
Proof.
  unfold slice_size.
  destruct sp as [x y|x|n]; cbn [spec_nonneg spec_fits spec_range spec_slice]; unfold fits;
    intros Hn Hf Hs.
  - replace (x =? -1) with false by lia. replace (y =? -1) with false by lia. reflexivity.
  - replace (x =? -1) with false by lia. cbn [andb negb Z.eqb Pos.eqb].
    rewrite wrap64_small by lia. reflexivity.
  - replace (n =? -1) with false by lia. cbn [andb negb Z.eqb Pos.eqb].
    rewrite !wrap64_small by lia. reflexivity.
Qed.

Theorem wellformed_exact retry hdr ir st sp a b len :
  0 <= st_size st <= max_int64 ->
  wellformed_spec hdr = Some sp ->
  serve_range retry hdr ir st = Partial a b len ->
  (a, b) = spec_slice sp (st_size st).
Proof.
  intros Hsz Hwf. unfold serve_range, header_range. rewrite (parse_range_wellformed _ _ Hwf).
  destruct (spec_fits sp) eqn:F; [|discriminate]. intros H.
  apply range_answer_partial in H as (r & Er & S & _). injection Er as <-.
  rewrite slice_size_of_spec in S by eauto using wellformed_nonneg.
  destruct (spec_slice sp (st_size st)) as [a' b'].
  destruct (validate_range a' b' _); congruence.
Qed.

(* Conversely: a well-formed spec that lies inside the representation and
   whose numbers fit is served (no If-Range), so "refuse everything" does not
   satisfy the model. *)
Theorem wellformed_inside_served retry hdr st sp :
  0 <= st_size st <= max_int64 ->
  wellformed_spec hdr = Some sp ->
  let '(a, b) := spec_slice sp (st_size st) in
  0 <= a -> a <= b -> b < st_size st ->
  match sp with SSuffix n => 0 <= n <= max_int64 | SFrom x => x <= max_int64 | SFromTo x y => x <= max_int64 /\ y <= max_int64 end ->
  serve_range retry hdr IRNone st = Partial a b (b - a + 1).
Proof.
  intros Hsz Hwf. pose proof (wellformed_nonneg _ _ Hwf) as Hn.
  unfold serve_range, header_range. rewrite (parse_range_wellformed _ _ Hwf).
  destruct (spec_slice sp (st_size st)) as [a b] eqn:Es. intros Ha Hab Hb Hfit.
  assert (F : spec_fits sp = true) by (destruct sp; cbn [spec_fits]; unfold fits; lia).
  rewrite F. unfold range_answer.
  rewrite slice_size_of_spec, Es, (proj2 (validate_range_iff a b _)) by auto. reflexivity.
Qed.
