(* Proofs about Model/Tunnel.v: isolation of the exchanges on a tunnel, and agreement of the
   two responders on what the property compares.  The witness on which a loop that keeps one
   responder for the whole tunnel leaks is defined here and evaluated in Properties/C10. *)
From Reservoir Require Import Base.Prelude Model.Relay Model.Tunnel Proofs.Relay.

Lemma filter_filter {A} (p q : A -> bool) l : filter p (filter q l) = filter (fun x => q x && p x) l.
Proof.
  induction l as [|a l IH]; cbn [filter]; [reflexivity|].
  destruct (q a); cbn [filter andb]; [destruct (p a); rewrite IH; reflexivity | exact IH].
Qed.

Lemma nth_map_snoc {A B} (f : A -> B) pre x d : nth (length pre) (map f (pre ++ [x])) d = f x.
Proof. rewrite map_app, app_nth2, map_length, Nat.sub_diag by (rewrite map_length; lia). reflexivity. Qed.

Lemma script_loop_fresh xs : forall s,
  script_loop false s xs = map (fun sc => snd (raw_script fresh sc)) xs.
Proof.
  induction xs as [|x xs IH]; intros s; cbn [script_loop map]; [reflexivity|].
  destruct (raw_script fresh x) as [s1 out]. cbn [snd]. rewrite IH. reflexivity.
Qed.

(* whatever state an earlier part of the tunnel left behind is irrelevant *)
Theorem tunnel_isolation_any_state s xs : tunnel_loop false s xs = map single_exchange xs.
Proof. unfold tunnel_loop. rewrite script_loop_fresh, map_map. reflexivity. Qed.

(* the pair on which the loop that keeps one responder for the whole tunnel leaks
   (evaluated in Properties/C10): a 206 from the store followed by a chunked 200; the
   second body is cut to the first one's Content-Length and Content-Range survives *)
Definition leak_origin : hdrs := [([88;45;66;105;103], [[49]])].      (* X-Big: 1 *)
Definition leak_first : exchange :=
  {| x_meth := MPlain; x_proto := [72;84;84;80;47;49;46;49];
     x_kind := KPartial leak_origin [] [] [98;121;116;101;115;32;50;45;53;47;50;48] [52] [50;51;52;53];
     x_body := [] |}.
Definition leak_second : exchange :=
  {| x_meth := MPlain; x_proto := [72;84;84;80;47;49;46;49];
     x_kind := KDirect 200 [] [];
     x_body := [104;101;108;108;111;32;119;111;114;108;100] |}.

Definition is_hdr_op (o : rop) : Prop :=
  match o with RWrite _ _ => False | RWriteError _ _ => False | _ => True end.

Lemma raw_pre m pre : Forall is_hdr_op pre -> forall s out,
  fold_left (raw_op m) pre (s, out) =
  ({| rs_status := rs_status s; rs_hdrs := fold_left hdr_op pre (rs_hdrs s); rs_cl := rs_cl s; rs_chunked := rs_chunked s |}, out).
Proof.
  induction 1 as [|o pre Ho _ IH]; intros s out; cbn [fold_left].
  - destruct s; reflexivity.
  - destruct o; try contradiction; cbn [raw_op]; rewrite IH; reflexivity.
Qed.

Lemma plain_pre m pre : Forall is_hdr_op pre -> forall h out,
  fold_left (plain_op m) pre (h, out) = (fold_left hdr_op pre h, out).
Proof.
  induction 1 as [|o pre Ho _ IH]; intros h out; cbn [fold_left]; [reflexivity|].
  destruct o; try contradiction; cbn [plain_op]; rewrite IH; reflexivity.
Qed.

Lemma ztake_nil {A} n : @ztake A n [] = [].
Proof. unfold ztake, zfirstn. rewrite firstn_nil. destruct (zlen [] <=? n); reflexivity. Qed.

Lemma ztake_firstn {A} n (l : list A) : ztake n l = zfirstn n l.
Proof.
  unfold ztake, zfirstn, zlen. destruct (Z.leb_spec (Z.of_nat (length l)) n); [|reflexivity].
  symmetry. apply firstn_all2. lia.
Qed.

(* what [proj] reads of a response written by RawHTTPResponder: the body apart, it is fixed by the state before *)
Lemma proj_write m s body gen :
  proj (snd (write_response m s body gen)) =
  (rs_status s, strip_framing (rs_hdrs s), if gen then [] else w_body (snd (write_response m s body gen))).
Proof.
  unfold write_response, proj. cbn [snd].
  destruct (rs_cl s <? 0); [destruct (body_allowed (rs_status s))|]; reflexivity.
Qed.

Lemma sent_nil m s gen : w_body (snd (write_response m s [] gen)) = [].
Proof.
  assert (forall fr, match fr with FLen n => ztake n [] | _ => @nil Z end = []) as F
    by (intros []; try reflexivity; apply ztake_nil).
  unfold write_response, response_write. cbn [snd w_body]. destruct m; try reflexivity; apply F.
Qed.

Lemma plain_sent_nil m st h : plain_sent m st h [] = [].
Proof.
  unfold plain_sent. destruct m, (body_allowed st), (0 <=? content_length h); try reflexivity; apply ztake_nil.
Qed.

(* what net/http guarantees about an upstream message: a declared length of 0 and a
   status without body both come with an empty body *)
Definition sane_write (h : hdrs) (st : Z) (body : str) : Prop :=
  (content_length h = 0 -> body = []) /\ (body_allowed st = false -> body = []).

Lemma sent_agree m h st body :
  sane_write h st body ->
  w_body (snd (write_response m {| rs_status := st; rs_hdrs := h; rs_cl := content_length h; rs_chunked := false |} body false))
  = plain_sent m st h body.
Proof.
  intros [S0 SA].
  destruct (body_allowed st) eqn:BA; [|rewrite (SA eq_refl), plain_sent_nil; apply sent_nil].
  destruct (Z.eqb_spec (content_length h) 0) as [Z|NZ]; [rewrite (S0 Z), plain_sent_nil; apply sent_nil|].
  (* a body is allowed and the declared length is unknown (chunked) or positive (the body is cut to it) *)
  unfold write_response, response_write, plain_sent. cbn [rs_cl rs_status rs_chunked]. rewrite BA.
  destruct (Z.ltb_spec (content_length h) 0) as [Neg|Pos]; cbn [snd rs_chunked rs_cl w_body negb andb].
  - destruct (Z.leb_spec 0 (content_length h)); [lia|]. destruct m; reflexivity.
  - rewrite (proj2 (Z.eqb_neq _ 0) NZ), (proj2 (Z.ltb_lt 0 _)), (proj2 (Z.leb_le 0 _) Pos) by lia.
    destruct m; reflexivity.
Qed.

Lemma hraw_del_cons_ne k k0 vs h : str_eqb k k0 = false -> hraw_del k ((k0, vs) :: h) = (k0, vs) :: hraw_del k h.
Proof. intros E. unfold hraw_del. cbn [filter fst]. rewrite E. reflexivity. Qed.

(* http.Error deletes Content-Length first; [strip_framing] hides the difference *)
Lemma error_headers_agree h :
  strip_framing (hset s_X_Content_Type_Options s_nosniff (hset s_Content_Type s_text_plain h)) =
  strip_framing (hset s_X_Content_Type_Options s_nosniff (hset s_Content_Type s_text_plain (hdel s_Content_Length h))).
Proof.
  unfold strip_framing, hset, hdel, hraw_put.
  change (canon_key s_X_Content_Type_Options) with s_X_Content_Type_Options.
  change (canon_key s_Content_Type) with s_Content_Type.
  change (canon_key s_Content_Length) with s_Content_Length.
  rewrite !hraw_del_cons_ne by reflexivity. f_equal. f_equal.
  unfold hraw_del. rewrite !filter_filter.
  apply filter_ext. intros [k vs]. cbn [fst].
  destruct (str_eqb s_Content_Length k), (str_eqb s_Content_Type k), (str_eqb s_X_Content_Type_Options k),
           (str_eqb s_Trailer k), (str_eqb s_Transfer_Encoding k); reflexivity.
Qed.

Definition is_write (o : rop) : Prop :=
  match o with RWrite _ _ => True | RWriteError _ _ => True | _ => False end.

(* a script as handleHTTP produces it: header calls, then exactly one write *)
Definition wf_script (sc : script) : Prop :=
  exists pre fin, snd sc = pre ++ [fin] /\ Forall is_hdr_op pre /\ is_write fin /\
    match fin with
    | RWrite st body => sane_write (fold_left hdr_op pre []) st body
    | _ => True
    end.

Theorem script_responders_agree sc :
  wf_script sc -> map proj (snd (raw_script fresh sc)) = map proj (plain_script sc).
Proof.
  intros (pre & fin & Hops & Hpre & Hfin & Hsane). destruct sc as [m ops]. cbn [snd] in Hops. subst ops.
  unfold raw_script, plain_script. cbn [fst snd]. rewrite !fold_left_app.
  rewrite (raw_pre m pre Hpre), (plain_pre m pre Hpre). cbn [fold_left fresh rs_hdrs rs_status rs_cl rs_chunked].
  destruct fin as [| | | st body | msg code]; try contradiction; cbn [raw_op plain_op rs_hdrs rs_chunked].
  - rewrite (surjective_pairing (write_response m _ body false)). cbn [snd app map].
    rewrite proj_write, (sent_agree m _ st body Hsane). reflexivity.
  - rewrite (surjective_pairing (write_response m _ msg true)). cbn [snd app map].
    rewrite proj_write. cbn [rs_hdrs]. rewrite (error_headers_agree (fold_left hdr_op pre [])). reflexivity.
Qed.

(* the body offered to the responder is consistent with the header it is written under *)
Definition sane_exchange (x : exchange) : Prop :=
  forall pre st body, exchange_ops x = pre ++ [RWrite st body] -> sane_write (fold_left hdr_op pre []) st body.

(* the definition speaks of every split of the script; there is one *)
Lemma sane_exchange_final x :
  match final_op x with
  | RWrite st body => sane_write (fold_left hdr_op (removelast (exchange_ops x)) []) st body
  | _ => True
  end -> sane_exchange x.
Proof.
  intros H pre st body E. destruct (exchange_ops_shape x) as [pre' [E' _]].
  rewrite E in E'. apply app_inj_tail in E' as [_ F]. rewrite <- F, E, removelast_last in H. exact H.
Qed.

Lemma sane_exchange_wf x : sane_exchange x -> wf_script (script_of x).
Proof.
  intros S. destruct (exchange_ops_shape x) as [pre [Hops Hpre]].
  exists pre, (final_op x). repeat split; try assumption.
  - unfold final_op. destruct (x_kind x); exact I.
  - destruct (final_op x); try exact I. apply S, Hops.
Qed.

Theorem tunnel_equals_plain xs :
  Forall sane_exchange xs -> map (map proj) (tunnel_run xs) = map (map proj) (plain_run xs).
Proof.
  intros H. unfold tunnel_run, plain_run. rewrite tunnel_isolation_any_state. rewrite !map_map.
  apply map_ext_in. intros x Hin. rewrite Forall_forall in H.
  apply script_responders_agree, sane_exchange_wf, H, Hin.
Qed.

(* X-Cache is part of what is compared *)
Theorem tunnel_same_xcache x w w' :
  sane_exchange x -> single_exchange x = [w] -> plain_exchange x = [w'] ->
  hraw_get s_X_Cache (w_hdrs w) = hraw_get s_X_Cache (w_hdrs w') /\ w_status w = w_status w'.
Proof.
  intros S E1 E2.
  pose proof (script_responders_agree (script_of x) (sane_exchange_wf x S)) as A.
  unfold single_exchange, raw_exchange in E1. unfold plain_exchange in E2. rewrite E1, E2 in A.
  cbn [map] in A. unfold proj in A. split; congruence.
Qed.
