(* C15 — soundness of the three-way discipline (guarded / read-only / confined): no reachable state of
   any number of threads under any schedule has a race.  The facts about the machine of Model/Race.v
   come first: which locks a step can add, and that a writer of a lock stays its only holder. *)
From Reservoir Require Import Base.Prelude Model.Sync Model.Race Model.Discipline Proofs.Sync.

Local Open Scope nat_scope.

Lemma mode_eqb_eq a b : mode_eqb a b = true <-> a = b.
Proof. destruct a, b; simpl; split; congruence. Qed.

Lemma hl_eqb_eq a b : hl_eqb a b = true <-> a = b.
Proof.
  destruct a as [l m], b as [l' m']. unfold hl_eqb. simpl.
  rewrite andb_true_iff, lock_eqb_eq, mode_eqb_eq. split; [intros [-> ->]; reflexivity|intros [= -> ->]; auto].
Qed.

Lemma hmem_In x h : hmem x h = true <-> In x h.
Proof. apply (mem_spec hl_eqb); auto using hl_eqb_eq. Qed.

Lemma hremove1_In a x h : In x (hremove1 a h) -> In x h.
Proof. apply (rem_incl hl_eqb); auto. Qed.

Lemma hmem_head x h : hmem x (x :: h) = true.
Proof. simpl. rewrite (proj2 (hl_eqb_eq x x) eq_refl). reflexivity. Qed.

Lemma hremove1_head x h : hremove1 x (x :: h) = h.
Proof. simpl. rewrite (proj2 (hl_eqb_eq x x) eq_refl). reflexivity. Qed.

(* A lock can be taken only past holders that are readers, and then only to read. *)
Lemma can_acq_readers s l m u m' :
  can_acq s l m = true -> In u s -> In (l, m') (rheld u) -> m = MR /\ m' = MR.
Proof.
  intros H Hu Hin. apply hmem_In in Hin.
  destruct m; simpl in H; rewrite forallb_forall in H; specialize (H u Hu);
    apply negb_true_iff in H; unfold holds_any, holds_mode in H.
  - destruct m'; [auto|congruence].
  - apply orb_false_iff in H as [H1 H2]. destruct m'; congruence.
Qed.

Lemma rthread_step_held s t c t' x : rthread_step s t c = Some t' ->
  In x (rheld t') -> In x (rheld t) \/ can_acq s (fst x) (snd x) = true.
Proof.
  unfold rthread_step.
  destruct (rcode t) as [|l m k|l m k|l m a b|a b|y w k|k];
    [|destruct (can_acq s l m) eqn:E|destruct (hmem (l, m) (rheld t))|destruct (can_acq s l m) eqn:E| | |];
    intros [= <-]; simpl; auto.
  - intros [<-|H]; auto.
  - intros H. left. exact (hremove1_In _ _ _ H).
  - intros [<-|H]; auto.
Qed.

Lemma rthread_step_disc C i s t c t' :
  disc C i (rheld t) (rcode t) = true -> rthread_step s t c = Some t' -> disc C i (rheld t') (rcode t') = true.
Proof.
  unfold rthread_step.
  destruct (rcode t) as [|l m k|l m k|l m a b|a b|x w k|k]; cbn [disc]; intros Hd; try apply andb_prop in Hd.
  - discriminate.
  - destruct (can_acq s l m); intros [= <-]. exact Hd.
  - destruct (hmem (l, m) (rheld t)); intros [= <-]. apply Hd.
  - destruct (can_acq s l m); intros [= <-]; apply Hd.
  - intros [= <-]. destruct c; apply Hd.
  - intros [= <-]. apply Hd.
  - intros [= <-]. exact Hd.
Qed.

(* a writer of a lock excludes every other holder of it.  Stated over one witness [w], the other
   holder's lock and mode, the writer holding [(fst w, MW)]: that is the shape [pairwise_upd] keeps *)
Definition lock_inv (s : rsys) : Prop :=
  forall i j ti tj (w : hl), nth_error s i = Some ti -> nth_error s j = Some tj ->
    In (fst w, MW) (rheld ti) -> In w (rheld tj) -> i = j.

Definition dwf (C : loc -> lclass) (s : rsys) : Prop :=
  lock_inv s /\ forall i t, nth_error s i = Some t -> disc C i (rheld t) (rcode t) = true.

Lemma rsys_step_dwf C s i c s' : dwf C s -> rsys_step s i c = Some s' -> dwf C s'.
Proof.
  unfold rsys_step. intros [Hinv Hd].
  destruct (nth_error s i) as [t|] eqn:Hi; [|discriminate].
  destruct (rthread_step s t c) as [t'|] eqn:Hst; intros [= <-]. split.
  - (* a lock the stepping thread shares with another thread, one of the two writing, it already held *)
    assert (Hshare : forall u l m m', In u s -> In (l, m') (rheld u) -> In (l, m) (rheld t') ->
                       m = MW \/ m' = MW -> In (l, m) (rheld t)).
    { intros u l m m' Hu Hu' Hin Hw. destruct (rthread_step_held _ _ _ _ _ Hst Hin) as [H|Ha]; [exact H|simpl in Ha].
      destruct (can_acq_readers _ _ _ _ _ Ha Hu Hu') as [-> ->]. destruct Hw; discriminate. }
    refine (pairwise_upd (fun w x => In (fst w, MW) (rheld x)) (fun w x => In w (rheld x)) s i t t' Hinv Hi _ _);
      intros u [l m]; simpl; eauto.
  - intros j u Hu. apply nth_upd_inv in Hu as [[-> ->]|Hu]; eauto using rthread_step_disc.
Qed.

Lemma rrun_dwf C sched : forall s s', dwf C s -> rrun s sched = Some s' -> dwf C s'.
Proof.
  induction sched as [|[i c] r IH]; simpl; intros s s' Hwf H.
  - inversion H; subst; exact Hwf.
  - destruct (rsys_step s i c) as [s1|] eqn:E; [|discriminate].
    eapply IH; [eapply rsys_step_dwf; eauto|exact H].
Qed.

Lemma disc_all_nth C ps : forall base i p,
  disc_all C base ps = true -> nth_error ps i = Some p -> disc C (base + i) [] p = true.
Proof.
  induction ps as [|q r IH]; intros base i p H Hn; [destruct i; discriminate|].
  cbn [disc_all] in H. apply andb_true_iff in H as [Hq Hr].
  destruct i as [|i]; simpl in Hn.
  - inversion Hn; subst. rewrite Nat.add_0_r. exact Hq.
  - rewrite Nat.add_succ_r. apply (IH (S base)); assumption.
Qed.

Lemma rspawn_dwf C ps : disc_all C 0 ps = true -> dwf C (rspawn ps).
Proof.
  intros H. split.
  - intros i j ti tj w Hi _ Hl. apply nth_error_In, in_map_iff in Hi as [p [<- _]]. destruct Hl.
  - intros i t Ht. unfold rspawn in Ht. rewrite nth_error_map in Ht.
    destruct (nth_error ps i) as [p|] eqn:Hp; inversion Ht. exact (disc_all_nth C ps 0 i p H Hp).
Qed.

Lemma race_with_spec t r : race_with t r = true -> exists j u, nth_error r j = Some u /\ conflict (pending t) (pending u) = true.
Proof.
  induction r as [|u r IH]; simpl; [discriminate|].
  intros H. apply orb_true_iff in H as [H|H].
  - exists 0, u. auto.
  - destruct (IH H) as (j & v & Hj & Hc). exists (S j), v. auto.
Qed.

Lemma has_race_spec s : has_race s = true ->
  exists i j ti tj, i <> j /\ nth_error s i = Some ti /\ nth_error s j = Some tj /\
                    conflict (pending ti) (pending tj) = true.
Proof.
  induction s as [|t r IH]; simpl; [discriminate|].
  intros H. apply orb_true_iff in H as [H|H].
  - destruct (race_with_spec t r H) as (j & u & Hj & Hc). exists 0, (S j), t, u. auto.
  - destruct (IH H) as (i & j & ti & tj & Hne & Hi & Hj & Hc). exists (S i), (S j), ti, tj. auto.
Qed.

Lemma disc_pending C i t x w :
  disc C i (rheld t) (rcode t) = true -> pending t = Some (x, w) -> acc_ok C i (rheld t) x w = true.
Proof.
  unfold pending. destruct (rcode t) as [| | | | |y w' k|]; try discriminate.
  cbn [disc]. intros Hg [= -> ->]. apply andb_true_iff in Hg. apply Hg.
Qed.

(* Whoever may write a location is the only thread that may access it. *)
Lemma writer_alone C s i j ti tj x w :
  lock_inv s -> nth_error s i = Some ti -> nth_error s j = Some tj ->
  acc_ok C i (rheld ti) x true = true -> acc_ok C j (rheld tj) x w = true -> i = j.
Proof.
  unfold acc_ok. intros Hinv Hi Hj. destruct (C x) as [g| |o]; intros H1 H2.
  - apply hmem_In in H1.
    assert (Hm : exists m, In (g, m) (rheld tj)).
    { destruct w; [|apply orb_true_iff in H2 as [H2|H2]]; apply hmem_In in H2; eauto. }
    destruct Hm as [m Hm]. exact (Hinv i j ti tj (g, m) Hi Hj H1 Hm).
  - discriminate.
  - apply Nat.eqb_eq in H1, H2. congruence.
Qed.

Theorem dwf_no_race C s : dwf C s -> has_race s = false.
Proof.
  intros [Hinv Hg]. destruct (has_race s) eqn:E; [|reflexivity]. exfalso.
  destruct (has_race_spec s E) as (i & j & ti & tj & Hne & Hi & Hj & Hc).
  unfold conflict in Hc.
  destruct (pending ti) as [[x w1]|] eqn:Pi; [|discriminate].
  destruct (pending tj) as [[y w2]|] eqn:Pj; [|discriminate].
  apply andb_true_iff in Hc as [Hxy Hw]. apply Nat.eqb_eq in Hxy. subst y.
  pose proof (disc_pending C i ti x w1 (Hg i ti Hi) Pi) as A1.
  pose proof (disc_pending C j tj x w2 (Hg j tj Hj) Pj) as A2.
  apply orb_true_iff in Hw as [-> | ->].
  - exact (Hne (writer_alone C s i j ti tj x w2 Hinv Hi Hj A1 A2)).
  - exact (Hne (eq_sym (writer_alone C s j i tj ti x w1 Hinv Hj Hi A2 A1))).
Qed.

Theorem discipline_sound C ps sched s' :
  disc_all C 0 ps = true -> rrun (rspawn ps) sched = Some s' -> has_race s' = false.
Proof.
  intros Hg Hrun. apply (dwf_no_race C). eapply rrun_dwf; [apply rspawn_dwf; exact Hg|exact Hrun].
Qed.

Lemma readonly_write_rejected C me h x k : C x = CReadOnly -> disc C me h (RAcc x true k) = false.
Proof. intros H. cbn [disc]. unfold acc_ok. rewrite H. reflexivity. Qed.

Lemma foreign_access_rejected C me o h x w k : C x = COwner o -> o <> me -> disc C me h (RAcc x w k) = false.
Proof.
  intros H Hne. cbn [disc]. unfold acc_ok. rewrite H.
  destruct (Nat.eqb o me) eqn:E; [apply Nat.eqb_eq in E; contradiction|reflexivity].
Qed.
