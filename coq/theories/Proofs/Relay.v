(* Proofs about Model/Relay.v: header maps as finite functions, what
   removeHopByHopHeaders removes and keeps, what SetHeaders copies, what the
   responder holds when a response is written, and the request target. *)
From Reservoir Require Import Base.Prelude Model.Relay.

(* Header maps are read through hraw_get only. *)
Lemma get_del k k' h : hraw_get k (hraw_del k' h) = if str_eqb k k' then [] else hraw_get k h.
Proof.
  induction h as [|[k0 vs] h IH]; cbn [hraw_del filter hraw_get fst].
  - destruct (str_eqb k k'); reflexivity.
  - fold (hraw_del k' h). destruct (str_eqb_spec k' k0) as [<-|N]; cbn [negb hraw_get]; rewrite IH.
    + destruct (str_eqb k k'); reflexivity.
    + destruct (str_eqb_spec k k0) as [->|]; [|reflexivity].
      destruct (str_eqb_spec k0 k'); [congruence|reflexivity].
Qed.

Lemma get_put k k' vs h : hraw_get k (hraw_put k' vs h) = if str_eqb k k' then vs else hraw_get k h.
Proof.
  unfold hraw_put. destruct vs as [|v vs].
  - apply get_del.
  - cbn [hraw_get]. rewrite get_del. destruct (str_eqb k k'); reflexivity.
Qed.

Lemma get_hdel k n h : hraw_get k (hdel n h) = if str_eqb k (canon_key n) then [] else hraw_get k h.
Proof. apply get_del. Qed.

Lemma get_hset k n v h : hraw_get k (hset n v h) = if str_eqb k (canon_key n) then [v] else hraw_get k h.
Proof. apply get_put. Qed.

Lemma get_hadd k n v h :
  hraw_get k (hadd n v h) = if str_eqb k (canon_key n) then hraw_get k h ++ [v] else hraw_get k h.
Proof.
  unfold hadd. rewrite get_put. destruct (str_eqb_spec k (canon_key n)) as [->|]; reflexivity.
Qed.

Lemma get_absent k h : existsb (str_eqb k) (hkeys h) = false -> hraw_get k h = [].
Proof.
  induction h as [|[k0 vs] h IH]; cbn [hkeys map existsb hraw_get fst]; [reflexivity|].
  intros H. apply orb_false_iff in H as [H1 H2]. rewrite H1. apply IH. exact H2.
Qed.

Lemma get_fold_del ks : forall h k,
  hraw_get k (fold_left (fun h n => hdel n h) ks h) =
  if existsb (fun n => str_eqb k (canon_key n)) ks then [] else hraw_get k h.
Proof.
  induction ks as [|n ks IH]; intros h k; cbn [fold_left existsb]; [reflexivity|].
  rewrite IH, get_hdel.
  destruct (str_eqb k (canon_key n)); cbn [orb]; [destruct (existsb _ ks); reflexivity | reflexivity].
Qed.

(* removeHopByHopHeaders as a function on fields *)
Definition removed_by_hop (k : str) (h : hdrs) : bool :=
  existsb (fun n => str_eqb k (canon_key n)) (connection_tokens h) ||
  existsb (fun n => str_eqb k (canon_key n)) hop_headers.

Lemma get_rhbh k h : hraw_get k (remove_hop_by_hop h) = if removed_by_hop k h then [] else hraw_get k h.
Proof.
  unfold remove_hop_by_hop, removed_by_hop. rewrite !get_fold_del.
  destruct (existsb _ hop_headers); [rewrite orb_true_r; reflexivity|].
  rewrite orb_false_r. reflexivity.
Qed.

Lemma removed_by_hop_spec k h :
  removed_by_hop k h = true <-> exists n, (In n (connection_tokens h) \/ In n hop_headers) /\ canon_key n = k.
Proof.
  unfold removed_by_hop. rewrite <- existsb_app, existsb_exists.
  split; intros [n [Hin E]]; exists n; rewrite in_app_iff, str_eqb_eq in *; auto.
Qed.

Lemma in_connection_tokens t h :
  In t (connection_tokens h) <->
  exists v e, In v (hvalues s_Connection h) /\ In e (split_comma v) /\ canon_key (trim_space e) = t /\ t <> [].
Proof.
  unfold connection_tokens. rewrite filter_In, in_map_iff, negb_true_iff, str_eqb_neq. split.
  - intros [[e [<- Hin]] Hne]. apply in_flat_map in Hin as [v [Hv He]]. exists v, e. auto.
  - intros (v & e & Hv & He & <- & Hne). split; [|exact Hne]. exists e. split; [reflexivity|].
    apply in_flat_map. exists v. auto.
Qed.

(* a field is end-to-end for a message with header h when removeHopByHopHeaders leaves it alone *)
Definition end_to_end (n : str) (h : hdrs) : Prop := removed_by_hop (canon_key n) h = false.

(* ... which says: it is none of the nine hop-by-hop fields and no element of a
   Connection value names it (after Go's blank trimming and case folding). *)
Definition element_names (e n : str) : Prop :=
  canon_key (trim_space e) <> [] /\ canon_key (canon_key (trim_space e)) = canon_key n.

Lemma end_to_end_spec n h :
  end_to_end n h <->
  (forall n', In n' hop_headers -> canon_key n' <> canon_key n) /\
  (forall v e, In v (hvalues s_Connection h) -> In e (split_comma v) -> ~ element_names e n).
Proof.
  unfold end_to_end. rewrite <- not_true_iff_false, removed_by_hop_spec. split.
  - intros H. split.
    + intros n' Hin Heq. apply H. exists n'. auto.
    + intros v e Hv He [Hne Heq]. apply H. exists (canon_key (trim_space e)). split; [left|exact Heq].
      apply in_connection_tokens. exists v, e. auto.
  - intros [H1 H2] [n' [[Hin|Hin] Heq]].
    + apply in_connection_tokens in Hin as (v & e & Hv & He & <- & Hne). apply (H2 v e Hv He). split; assumption.
    + apply (H1 n' Hin Heq).
Qed.

Lemma rhbh_keeps n h : end_to_end n h -> hvalues n (remove_hop_by_hop h) = hvalues n h.
Proof. unfold end_to_end, hvalues. intros H. rewrite get_rhbh, H. reflexivity. Qed.

Lemma rhbh_removes n h : removed_by_hop (canon_key n) h = true -> hvalues n (remove_hop_by_hop h) = [].
Proof. unfold hvalues. intros H. rewrite get_rhbh, H. reflexivity. Qed.

(* Case folding: the canonical key of a name depends on its lower-case form only. *)
Lemma lower_lower_same a b : to_lower a = to_lower b -> to_lower (to_lower a) = to_lower (to_lower b).
Proof. congruence. Qed.

Lemma valid_lower c : valid_field_byte (to_lower c) = valid_field_byte c.
Proof.
  unfold to_lower. destruct (is_upper c) eqn:U; [|reflexivity].
  assert (is_lower (c + 32) = true) as L by (apply is_lower_range; apply is_upper_range in U; lia).
  unfold valid_field_byte. rewrite U, L, !orb_true_r. reflexivity.
Qed.

Lemma valid_upper c : valid_field_byte c = true -> valid_field_byte (to_upper c) = true.
Proof.
  intros V. unfold to_upper. destruct (is_lower c) eqn:L; [|exact V].
  assert (is_upper (c - 32) = true) as U by (apply is_upper_range; apply is_lower_range in L; lia).
  unfold valid_field_byte. rewrite U, orb_true_r. reflexivity.
Qed.

Lemma valid_lower_str s : forallb valid_field_byte (lower_str s) = forallb valid_field_byte s.
Proof.
  induction s as [|c s IH]; cbn [lower_str map forallb]; [reflexivity|].
  rewrite valid_lower. f_equal. exact IH.
Qed.

Lemma canon_go_lower s : forall u, canon_go u (lower_str s) = canon_go u s.
Proof.
  induction s as [|c s IH]; intros u; cbn [lower_str map canon_go]; [reflexivity|].
  destruct u; rewrite ?to_upper_lower, ?to_lower_idem, IH; reflexivity.
Qed.

Lemma canon_key_ci a b : forallb valid_field_byte a = true -> lower_str a = lower_str b -> canon_key a = canon_key b.
Proof.
  intros V H. unfold canon_key. rewrite <- (valid_lower_str b), <- H, valid_lower_str, V.
  rewrite <- (canon_go_lower a), H. apply canon_go_lower.
Qed.

Lemma lower_canon_go s : forall u, lower_str (canon_go u s) = lower_str s.
Proof.
  induction s as [|c s IH]; intros u; cbn [canon_go lower_str map]; [reflexivity|].
  f_equal; [destruct u; [apply to_lower_upper | apply to_lower_idem] | apply IH].
Qed.

Lemma valid_canon_go s : forall u, forallb valid_field_byte s = true -> forallb valid_field_byte (canon_go u s) = true.
Proof.
  induction s as [|c s IH]; intros u V; cbn [canon_go forallb] in *; [reflexivity|].
  apply andb_true_iff in V as [V1 V2]. apply andb_true_iff. split; [|apply IH; exact V2].
  destruct u; [apply valid_upper; exact V1 | rewrite valid_lower; exact V1].
Qed.

Lemma canon_key_idem s : canon_key (canon_key s) = canon_key s.
Proof.
  unfold canon_key at 2. destruct (forallb valid_field_byte s) eqn:V.
  - symmetry. apply canon_key_ci; [exact V|]. symmetry. apply lower_canon_go.
  - unfold canon_key. rewrite V. reflexivity.
Qed.

(* strings.TrimSpace on an RFC 9110 list element: OWS token OWS *)
Definition is_ows (c : Z) : Prop := c = 32 \/ c = 9.

Lemma valid_range c : valid_field_byte c = true -> 33 <= c <= 126.
Proof.
  unfold valid_field_byte. rewrite !orb_true_iff, is_digit_range, is_upper_range, is_lower_range, existsb_exists.
  intros [[[H|H]|H]|[x [Hin Heq]]]; try lia.
  apply Z.eqb_eq in Heq. subst x. cbn [tchar_specials In] in Hin. lia.
Qed.

(* every byte at which a blank of TrimSpace starts or ends lies outside the printable ASCII range *)
Lemma printable_no_space c a b : 33 <= c <= 126 ->
  ascii_space c = false /\ space2 c a = false /\ space2 a c = false /\ space3 c a b = false /\ space3 b a c = false.
Proof.
  intros R. assert (forall k, k < 33 \/ 126 < k -> (c =? k) = false) as N by (intros; apply Z.eqb_neq; lia).
  unfold ascii_space, space2, space3. rewrite !N by lia. rewrite (proj2 (Z.leb_gt 128 c)) by lia.
  cbn [andb orb]. rewrite !andb_false_r. auto.
Qed.

Lemma trim_token_stop t x : t <> [] -> forallb valid_field_byte t = true ->
  trim_left (t ++ x) = t ++ x /\ trim_left_rev (t ++ x) = t ++ x.
Proof.
  destruct t as [|c t]; [congruence|]. cbn [forallb app]. intros _ V.
  apply andb_true_iff in V as [V _]. apply valid_range in V.
  cbn [trim_left trim_left_rev]. destruct (t ++ x) as [|a [|b r]].
  - destruct (printable_no_space c c c V) as (-> & _). split; reflexivity.
  - destruct (printable_no_space c a a V) as (-> & -> & -> & _). split; reflexivity.
  - destruct (printable_no_space c a b V) as (-> & -> & -> & -> & ->). split; reflexivity.
Qed.

Lemma trim_ows l x : Forall is_ows l ->
  trim_left (l ++ x) = trim_left x /\ trim_left_rev (l ++ x) = trim_left_rev x.
Proof. induction 1 as [|c l [->| ->] _ IH]; [split; reflexivity|exact IH..]. Qed.

Lemma trim_space_element l t r :
  Forall is_ows l -> Forall is_ows r -> t <> [] -> forallb valid_field_byte t = true ->
  trim_space (l ++ t ++ r) = t.
Proof.
  intros Hl Hr Hne V.
  (* the token read backwards stops the trimming from the right just as well *)
  assert (Hne' : rev t <> []) by (intros E; apply Hne; rewrite <- (rev_involutive t), E; reflexivity).
  assert (V' : forallb valid_field_byte (rev t) = true) by (rewrite forallb_rev; exact V).
  unfold trim_space.
  rewrite (proj1 (trim_ows l _ Hl)), (proj1 (trim_token_stop t r Hne V)), rev_app_distr.
  rewrite (proj2 (trim_ows _ _ (Forall_rev Hr))).
  rewrite <- (app_nil_r (rev t)), (proj2 (trim_token_stop (rev t) [] Hne' V')), app_nil_r.
  apply rev_involutive.
Qed.

(* RFC 9110 7.6.1: a field named by a Connection option (token, any case, optional blanks around) is removed *)
Theorem nominated_removed h n v l t r :
  In v (hvalues s_Connection h) -> In (l ++ t ++ r) (split_comma v) ->
  Forall is_ows l -> Forall is_ows r -> t <> [] -> forallb valid_field_byte t = true ->
  lower_str t = lower_str n ->
  hvalues n (remove_hop_by_hop h) = [].
Proof.
  intros Hv He Hl Hr Hne V Hci. apply rhbh_removes, removed_by_hop_spec.
  exists (canon_key t). split.
  - left. apply in_connection_tokens. exists v, (l ++ t ++ r).
    rewrite trim_space_element by assumption. repeat split; try assumption.
    unfold canon_key. rewrite V. destruct t; [congruence|discriminate].
  - rewrite canon_key_idem. apply canon_key_ci; assumption.
Qed.

(* every one of the nine hop-by-hop fields, in any case, is removed *)
Theorem hop_name_removed h n n' :
  In n' hop_headers -> lower_str n' = lower_str n -> hvalues n (remove_hop_by_hop h) = [].
Proof.
  intros Hin Hci. apply rhbh_removes, removed_by_hop_spec. exists n'. split; [right; exact Hin|].
  apply canon_key_ci; [|exact Hci].
  exact (proj1 (forallb_forall (forallb valid_field_byte) hop_headers) eq_refl n' Hin).
Qed.

(* a header map as net/http builds it: unique, canonical keys; on such a source SetHeaders copies every field *)
Definition wf_hdrs (h : hdrs) : Prop :=
  NoDup (hkeys h) /\ Forall (fun k => canon_key k = k) (hkeys h).

Lemma get_add_all k0 vs : forall d k,
  hraw_get k (fold_left (fun d v => hadd k0 v d) vs d) =
  if str_eqb k (canon_key k0) then hraw_get k d ++ vs else hraw_get k d.
Proof.
  induction vs as [|v vs IH]; intros d k; cbn [fold_left].
  - destruct (str_eqb k (canon_key k0)); [rewrite app_nil_r|]; reflexivity.
  - rewrite IH, get_hadd. destruct (str_eqb k (canon_key k0)); [rewrite <- app_assoc|]; reflexivity.
Qed.

Lemma get_set_headers src : wf_hdrs src -> forall dst k,
  hraw_get k (set_headers src dst) =
  if existsb (str_eqb k) (hkeys src) then hraw_get k src else hraw_get k dst.
Proof.
  unfold set_headers, wf_hdrs.
  induction src as [|[k0 vs0] src IH]; cbn [fold_left hkeys map existsb hraw_get fst snd]; [reflexivity|].
  rewrite NoDup_cons_iff, Forall_cons_iff. intros [[Hnotin ND] [Hc CK]] dst k.
  rewrite IH, get_add_all, get_hdel, Hc by (split; assumption). fold (hkeys src).
  destruct (str_eqb_spec k k0) as [->|]; [|reflexivity]. cbn [orb].
  destruct (existsb (str_eqb k0) (hkeys src)) eqn:X; [|reflexivity].
  apply existsb_exists in X as [y [Hy <-%str_eqb_eq]]. contradiction.
Qed.

Lemma get_set_headers_empty src k : wf_hdrs src -> hraw_get k (set_headers src []) = hraw_get k src.
Proof.
  intros W. rewrite get_set_headers by exact W.
  destruct (existsb (str_eqb k) (hkeys src)) eqn:E; [reflexivity|].
  symmetry. apply get_absent. exact E.
Qed.

Lemma hkeys_del k h : hkeys (hraw_del k h) = filter (fun k0 => negb (str_eqb k k0)) (hkeys h).
Proof.
  induction h as [|[k0 vs] h IH]; cbn [hraw_del hkeys filter map fst]; [reflexivity|].
  destruct (negb (str_eqb k k0)); cbn [map fst]; f_equal; exact IH.
Qed.

Lemma wf_del k h : wf_hdrs h -> wf_hdrs (hraw_del k h).
Proof.
  unfold wf_hdrs. rewrite hkeys_del, !Forall_forall. intros [ND CK]. split; [apply NoDup_filter, ND|].
  intros x Hx. apply filter_In in Hx as [Hx _]. exact (CK x Hx).
Qed.

Lemma wf_fold_del ks : forall h, wf_hdrs h -> wf_hdrs (fold_left (fun h n => hdel n h) ks h).
Proof.
  induction ks as [|n ks IH]; intros h W; cbn [fold_left]; [exact W|]. apply IH, wf_del, W.
Qed.

Lemma wf_rhbh h : wf_hdrs h -> wf_hdrs (remove_hop_by_hop h).
Proof. intros W. unfold remove_hop_by_hop. apply wf_fold_del, wf_fold_del, W. Qed.

(* the fields handleHTTP writes itself: on a relayed 2xx, on a 200 from the store, on a 206 from the store *)
Definition owned_direct : list str := [s_Accept_Ranges; s_Cache_Status; s_X_Cache; s_Via].
Definition owned_stored : list str := [s_Accept_Ranges; s_Etag; s_Last_Modified; s_Cache_Status; s_X_Cache; s_Via; s_Age].
Definition owned_partial : list str := [s_Accept_Ranges; s_Content_Range; s_Content_Length; s_Etag; s_Last_Modified].

Definition not_in (n : str) (l : list str) : Prop := existsb (str_eqb (canon_key n)) l = false.

(* the calls of [ops] set or add fields of [l] only; for a script of handleHTTP, whose
   field names are literals, this is decided by evaluation *)
Definition writes_within (l : list str) (ops : list rop) : bool :=
  forallb (fun o => match o with
                    | RSet n _ | RAdd n _ => existsb (str_eqb (canon_key n)) l
                    | RSetAll _ => false
                    | _ => true
                    end) ops.

Lemma ops_frame l ops k : writes_within l ops = true -> existsb (str_eqb k) l = false ->
  forall h, hraw_get k (fold_left hdr_op ops h) = hraw_get k h.
Proof.
  intros Wr N. assert (forall n, existsb (str_eqb (canon_key n)) l = true -> str_eqb k (canon_key n) = false) as Ne.
  { intros n Hn. apply str_eqb_neq. intros ->. congruence. }
  induction ops as [|o ops IH]; intros h; cbn [fold_left]; [reflexivity|].
  cbn [writes_within forallb] in Wr. apply andb_true_iff in Wr as [Wo Wr]. rewrite (IH Wr).
  destruct o; try discriminate; cbn [hdr_op]; rewrite ?get_hset, ?get_hadd, ?(Ne _ Wo); reflexivity.
Qed.

(* Every response that comes from an origin message starts with SetHeaders of that
   message's header after removeHopByHopHeaders; a field the later calls leave alone
   keeps the value it has there. *)
Theorem response_headers_origin origin l n : wf_hdrs origin -> not_in n l -> forall x rest,
  exchange_ops x = RSetAll (remove_hop_by_hop origin) :: rest -> writes_within l rest = true ->
  hvalues n (response_headers x) = hvalues n (remove_hop_by_hop origin).
Proof.
  intros W N x rest E Wr. unfold hvalues, response_headers. rewrite E. cbn [fold_left hdr_op].
  rewrite (ops_frame l) by assumption. apply get_set_headers_empty, wf_rhbh, W.
Qed.

(* the proxy's own fields are appended after the origin's values, never replace them *)
Theorem direct_appends meth proto status origin cs body :
  wf_hdrs origin -> (200 <=? status) && (status <? 300) = true ->
  let x := {| x_meth := meth; x_proto := proto; x_kind := KDirect status origin cs; x_body := body |} in
  (end_to_end s_Via origin -> hvalues s_Via (response_headers x) = hvalues s_Via origin ++ [proto ++ s_sp_reservoir]) /\
  (end_to_end s_X_Cache origin -> hvalues s_X_Cache (response_headers x) = hvalues s_X_Cache origin ++ [s_MISS]) /\
  (end_to_end s_Cache_Status origin -> hvalues s_Cache_Status (response_headers x) = hvalues s_Cache_Status origin ++ [cs]).
Proof.
  intros W S x. subst x. unfold hvalues, response_headers, exchange_ops. cbn [x_kind x_proto]. rewrite S.
  cbn [fold_left hdr_op cache_header_ops app xcache_of].
  (* what is left after the rewrites are tests between literal field names *)
  repeat split; unfold end_to_end; intros E;
    rewrite !get_hadd, get_hset, get_set_headers_empty, get_rhbh, E by (apply wf_rhbh, W); reflexivity.
Qed.

(* no hop-by-hop or nominated field of the origin reaches the client; stated for the fields
   the proxy writes on no response, those outside [owned_stored] and [owned_partial] *)
Theorem response_drops_hop x origin n :
  (match x_kind x with
   | KDirect _ o _ => o = origin | KStored _ o _ _ _ _ => o = origin | KPartial o _ _ _ _ _ => o = origin
   | _ => False end) ->
  wf_hdrs origin -> removed_by_hop (canon_key n) origin = true ->
  not_in n owned_stored -> not_in n owned_partial ->
  hvalues n (response_headers x) = [].
Proof.
  intros K W R N1 N2. rewrite <- (rhbh_removes n origin R).
  destruct x as [meth proto [status o cs | hs o etag lm cs age | o etag lm cr clen section | cr | ] body];
    cbn [x_kind] in K; try contradiction; subst o.
  - eapply (response_headers_origin origin owned_stored n W N1); [reflexivity|].
    destruct ((200 <=? status) && (status <? 300)); reflexivity.
  - eapply (response_headers_origin origin owned_stored n W N1); [reflexivity|]. destruct hs; reflexivity.
  - eapply (response_headers_origin origin owned_partial n W N2); reflexivity.
Qed.

(* RFC 3986: path-abempty = *( "/" segment ), segment = *pchar,
   pchar = unreserved / pct-encoded / sub-delims / ":" / "@" *)
Definition rfc_plain (c : Z) : bool :=
  is_digit c || is_upper c || is_lower c ||
  existsb (Z.eqb c) [45;46;95;126; 33;36;38;39;40;41;42;43;44;59;61; 58;64; 47].
Fixpoint rfc_path_chars (s : str) : bool :=
  match s with
  | [] => true
  | c :: r =>
      if c =? 37 then
        match r with
        | a :: b :: r2 => is_hex a && is_hex b && rfc_path_chars r2
        | _ => false
        end
      else rfc_plain c && rfc_path_chars r
  end.
Definition rfc_path (p : str) : Prop := exists p', p = 47 :: p' /\ rfc_path_chars p = true.

(* validEncoded's test on one byte *)
Definition enc_ok (c : Z) : bool := existsb (Z.eqb c) valid_extra || negb (should_escape_path c).

Lemma alnum_enc_ok c : is_digit c || is_upper c || is_lower c = true -> enc_ok c = true.
Proof. unfold enc_ok, should_escape_path. intros ->. apply orb_true_r. Qed.

Lemma rfc_plain_enc_ok c : rfc_plain c = true -> enc_ok c = true.
Proof.
  unfold rfc_plain. intros H. apply orb_true_iff in H as [H|H]; [exact (alnum_enc_ok c H)|].
  apply existsb_exists in H as [x [Hin Heq]]. apply Z.eqb_eq in Heq. subst x.
  cbn [In] in Hin. repeat (destruct Hin as [<-|Hin]; [reflexivity|]). contradiction.
Qed.

Lemma hex_enc_ok c : is_hex c = true -> enc_ok c = true.
Proof.
  intros H. apply alnum_enc_ok. unfold is_hex in H.
  rewrite !orb_true_iff, !andb_true_iff, !Z.leb_le, is_digit_range in H.
  rewrite !orb_true_iff, is_digit_range, is_upper_range, is_lower_range. lia.
Qed.

Lemma rfc_path_chars_ind (P : str -> Prop) :
  P [] ->
  (forall a b r, is_hex a = true -> is_hex b = true -> P r -> P (37 :: a :: b :: r)) ->
  (forall c r, c <> 37 -> rfc_plain c = true -> P r -> P (c :: r)) ->
  forall p, rfc_path_chars p = true -> P p.
Proof.
  intros H0 H1 H2. fix IH 1. intros [|c r] H; [exact H0|]. cbn [rfc_path_chars] in H.
  destruct (Z.eqb_spec c 37) as [->|Hc].
  - destruct r as [|a [|b r2]]; try discriminate.
    apply andb_true_iff in H as [H H3]. apply andb_true_iff in H as [Ha Hb]. exact (H1 a b r2 Ha Hb (IH r2 H3)).
  - apply andb_true_iff in H as [Hp Hr]. exact (H2 c r Hc Hp (IH r Hr)).
Qed.

Lemma rfc_path_chars_ok : forall p, rfc_path_chars p = true ->
  valid_encoded p = true /\ exists path, unescape_path p = Some path.
Proof.
  apply (rfc_path_chars_ind (fun p => valid_encoded p = true /\ exists path, unescape_path p = Some path));
    unfold valid_encoded; cbn [forallb unescape_path].
  - split; [reflexivity|exists []; reflexivity].
  - intros a b r Ha Hb [V [t Ht]]. fold (enc_ok a) (enc_ok b).
    rewrite (hex_enc_ok a Ha), (hex_enc_ok b Hb), V, Ht, Ha, Hb. split; [reflexivity|eexists; reflexivity].
  - intros c r Hc Hp [V [t Ht]]. fold (enc_ok c).
    rewrite (rfc_plain_enc_ok c Hp), V, Ht, (proj2 (Z.eqb_neq c 37) Hc). split; [reflexivity|eexists; reflexivity].
Qed.

Lemma unescape_slash p' path : unescape_path (47 :: p') = Some path -> exists t, path = 47 :: t.
Proof.
  cbn [unescape_path]. change (47 =? 37) with false. cbn iota.
  destruct (unescape_path p') as [t|]; intros H; inversion H. eexists. reflexivity.
Qed.

(* the path the origin sees is byte for byte the path the client sent *)
Theorem path_preserved p :
  rfc_path p -> exists path raw, set_path p = Some (path, raw) /\ escaped_path path raw = p.
Proof.
  intros [p' [-> Hc]]. destruct (rfc_path_chars_ok _ Hc) as [V [path Hu]].
  unfold set_path. rewrite Hu. eexists. eexists. split; [reflexivity|].
  destruct (unescape_slash _ _ Hu) as [t ->].
  unfold escaped_path. destruct (str_eqb (escape_path (47 :: t)) (47 :: p')) eqn:E.
  - apply str_eqb_eq in E. cbn [str_eqb negb andb]. exact E.
  - rewrite V, Hu, str_eqb_refl. reflexivity.
Qed.

Definition with_query (p q : str) : str := match q with [] => p | _ => p ++ [63] ++ q end.

Theorem target_preserved p q : rfc_path p -> forwarded_target p q = Some (with_query p q).
Proof.
  intros R. destruct (path_preserved p R) as [path [raw [Hs He]]].
  unfold forwarded_target. rewrite Hs. unfold request_uri. rewrite He.
  destruct R as [p' [-> _]]. cbn [orb]. unfold with_query. destruct q; reflexivity.
Qed.

Definition is_conditional (n : str) : Prop := existsb (fun c => str_eqb (canon_key n) (canon_key c)) conditional_names = true.

Lemma relay_request_hdrs r u : relay_request r = Some u -> q_hdrs u = remove_hop_by_hop (after_cache_layer r).
Proof. unfold relay_request. destruct (forwarded_target _ _); intros [= <-]; reflexivity. Qed.

Lemma strip_keeps_connection h : hvalues s_Connection (strip_conditionals h) = hvalues s_Connection h.
Proof. unfold hvalues, strip_conditionals. rewrite get_fold_del. reflexivity. Qed.

Lemma removed_after_cache k r : removed_by_hop k (after_cache_layer r) = removed_by_hop k (c_hdrs r).
Proof.
  unfold after_cache_layer. destruct (cache_answers (c_method r)); [|reflexivity].
  unfold removed_by_hop, connection_tokens. rewrite strip_keeps_connection. reflexivity.
Qed.

Theorem request_headers_faithful r u n :
  relay_request r = Some u -> end_to_end n (c_hdrs r) -> (cache_answers (c_method r) = true -> ~ is_conditional n) ->
  hvalues n (q_hdrs u) = hvalues n (c_hdrs r).
Proof.
  intros H E NC. unfold hvalues, end_to_end in *. rewrite (relay_request_hdrs r u H), get_rhbh, removed_after_cache, E.
  unfold after_cache_layer. destruct (cache_answers (c_method r)); [|reflexivity].
  unfold strip_conditionals. rewrite get_fold_del.
  apply not_true_is_false in NC; [|reflexivity]. unfold is_conditional in NC. rewrite NC. reflexivity.
Qed.

Theorem request_drops_hop r u n :
  relay_request r = Some u -> removed_by_hop (canon_key n) (c_hdrs r) = true -> hvalues n (q_hdrs u) = [].
Proof.
  intros H R. unfold hvalues. rewrite (relay_request_hdrs r u H), get_rhbh, removed_after_cache, R. reflexivity.
Qed.

Theorem request_faithful r :
  rfc_path (c_rawpath r) ->
  exists u, relay_request r = Some u /\
            q_method u = c_method r /\ q_body u = c_body r /\
            q_target u = with_query (c_rawpath r) (c_query r).
Proof.
  intros R. unfold relay_request. rewrite (target_preserved _ (c_query r) R).
  eexists. split; [reflexivity|]. cbn. repeat split.
Qed.

(* Every script of handleHTTP is header calls followed by one write, [final_op]. *)
Definition final_op (x : exchange) : rop :=
  match x_kind x with
  | KPartial _ _ _ _ _ section => RWrite 206 (final_body x section)
  | KRefuse _ => RWriteError s_invalid_range 416
  | KBadGateway => RWriteError s_error_fetching 502
  | _ => RWrite (response_status x) (final_body x (x_body x))
  end.

Lemma exchange_ops_shape x :
  exists pre, exchange_ops x = pre ++ [final_op x] /\
              Forall (fun o => match o with RWrite _ _ => False | RWriteError _ _ => False | _ => True end) pre.
Proof.
  (* eight literal scripts: all but the last call of each *)
  exists (removelast (exchange_ops x)).
  destruct x as [m proto [status o cs | hs o etag lm cs age | o etag lm cr clen section | cr | ] body];
    unfold exchange_ops, final_op, response_status; cbn [x_kind x_proto x_body];
    [destruct ((200 <=? status) && (status <? 300)) | destruct hs | | | ]; split; try reflexivity; repeat constructor.
Qed.
