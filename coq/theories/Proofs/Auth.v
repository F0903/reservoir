(* Proofs about Model/Auth.v (C20), for every password-hash scheme (H, verify, mkhash), every
   route table and every history.  lookup, handle and api_step each get one inductive view
   (looked, handled, stepped).  What a request can create or touch, and that it preserves Inv,
   is read off the views; Inv relates the session table to the life that Model/Auth.v reads off
   the observable trace, and carries the theorems about histories. *)
From Reservoir Require Import Base.Prelude Model.Auth.

Lemma routes_guarded_sound : forall table, routes_guarded table = true ->
  forall r, In r table -> is_login_route r = false -> r_auth r = true.
Proof.
  intros table Hg r Hin Hl. unfold routes_guarded in Hg.
  rewrite forallb_forall in Hg. specialize (Hg r Hin). rewrite Hl in Hg. exact Hg.
Qed.

Lemma mux_found {table m p r} : mux table m p = MFound r ->
  In r table /\ route_matches m p r = true.
Proof.
  intros H. unfold mux in H.
  destruct (find (route_matches m p) table) as [r'|] eqn:E.
  - inversion H; subst. apply find_some in E. exact E.
  - destruct (existsb _ table); discriminate.
Qed.

Lemma meth_eqb_eq a b : meth_eqb a b = true <-> a = b.
Proof. split; [destruct a, b; (reflexivity || discriminate)|intros ->; destruct b; reflexivity]. Qed.

Lemma meth_matches_post pat m : meth_matches pat m = true -> (pat = POST <-> m = POST).
Proof. intros Hm. split; intros ->; [destruct m|destruct pat]; (reflexivity || discriminate). Qed.

Lemma kind_login_iff r : kind_of r = HLogin <-> is_login_route r = true.
Proof.
  unfold kind_of, is_login_route.
  destruct (r_method r); simpl; try (intuition congruence).
  - destruct (str_eqb (r_path r) p_login), (str_eqb (r_path r) p_logout); intuition congruence.
  - destruct (str_eqb (r_path r) p_change), (str_eqb (r_path r) p_config); intuition congruence.
Qed.

Lemma kind_logout_iff r : kind_of r = HLogout <-> r_method r = POST /\ r_path r = p_logout.
Proof.
  unfold kind_of. rewrite <- (str_eqb_eq (r_path r) p_logout).
  destruct (r_method r); try (intuition congruence).
  - destruct (str_eqb (r_path r) p_login) eqn:E.
    + (* the two paths differ *)
      apply str_eqb_eq in E. rewrite E. intuition discriminate.
    + destruct (str_eqb (r_path r) p_logout); intuition congruence.
  - destruct (str_eqb (r_path r) p_change), (str_eqb (r_path r) p_config); intuition congruence.
Qed.

Lemma cross_site_blocks {q} :
  cross_site q = true \/ preflight q = true ->
  harden_blocks (q_method q) (q_origin q) (q_site q) = true.
Proof.
  intros [Hc|Hp]; unfold harden_blocks.
  - unfold cross_site in Hc.
    destruct (emptyb (q_origin q)); [discriminate|].
    destruct (emptyb (q_site q)); [discriminate|].
    destruct (str_eqb (q_site q) s_same_origin); [discriminate|].
    destruct (str_eqb (q_site q) s_same_site); [discriminate|]. reflexivity.
  - unfold preflight in Hp. rewrite Hp. apply orb_true_r.
Qed.

Definition routed (table : list route) (q : request) (r : route) : Prop :=
  harden_blocks (q_method q) (q_origin q) (q_site q) = false /\
  mux table (q_method q) (q_path q) = MFound r.

Lemma routed_touches {table q r} : routed table q r -> touches table q = true.
Proof. intros [Hb Hm]. unfold touches. rewrite Hb, Hm. reflexivity. Qed.

(* life_req knows a logout by the request, handle by the route: they agree *)
Lemma routed_logout {table q r} :
  routed table q r -> (is_logout_req q = true <-> kind_of r = HLogout).
Proof.
  intros [_ Hm]. destruct (mux_found Hm) as [_ Hrm]. revert Hrm.
  unfold route_matches, is_logout_req.
  rewrite !andb_true_iff, kind_logout_iff, meth_eqb_eq, !str_eqb_eq.
  intros [Hp <-]. apply meth_matches_post in Hp. tauto.
Qed.

Section WithHash.
Variable H : Type.
Variable verify : H -> Z -> bool.
Variable mkhash : Z -> H.

Notation state := (state H).
Notation effect := (effect H).
Notation api_step := (api_step H verify mkhash).
Notation handle := (handle H verify mkhash).
Notation step := (step H verify mkhash).
Notation run := (run H verify mkhash).
Notation lookup := (lookup H).
Notation authorises := (authorises H).
Notation apply_effect := (apply_effect H).
Notation apply_effects := (apply_effects H).
Notation login_ok := (login_ok H verify).
Notation created := (created H).

Lemma authorises_entry {st : state} {sid uid e} :
  s_sess H st sid = Some (uid, e) -> authorises st (Some sid) = (s_now H st <? e).
Proof. intros Hs. unfold Auth.authorises. rewrite Hs. reflexivity. Qed.

(* the outcomes of GetSession: refused, or accepted and extended if close to expiry *)
Inductive looked (st : state) : option Z -> option (Z * Z) -> list effect -> Prop :=
| LkRefused c : authorises st c = false -> looked st c None []
| LkLive k u e :
    s_sess H st k = Some (u, e) -> s_now H st < e ->
    looked st (Some k) (Some (k, u))
           (if e - s_now H st <=? extend_threshold then [EExtend k (s_now H st + lifetime)] else []).

Lemma lookup_looked : forall (st : state) c,
  looked st c (fst (lookup st c)) (snd (lookup st c)).
Proof.
  intros st c. unfold Auth.lookup.
  destruct c as [k|]; [|apply LkRefused; reflexivity].
  destruct (s_sess H st k) as [[u e]|] eqn:Es;
    [|apply LkRefused; unfold Auth.authorises; rewrite Es; reflexivity].
  destruct (Z.leb_spec e (s_now H st)) as [|He];
    [apply LkRefused; rewrite (authorises_entry Es); lia|].
  generalize (LkLive st k u e Es He). destruct (_ <=? _); trivial.
Qed.

Lemma looked_unauth {st : state} {c sess e1} :
  looked st c sess e1 -> authorises st c = false -> sess = None /\ e1 = [].
Proof.
  intros [c' _|k u e Hs He] Ha; [split; reflexivity|].
  rewrite (authorises_entry Hs) in Ha. lia.
Qed.

Lemma lookup_unauth {st : state} {c} : authorises st c = false -> lookup st c = (None, []).
Proof.
  intros Ha. destruct (looked_unauth (lookup_looked st c) Ha) as [E1 E2].
  rewrite (surjective_pairing (lookup st c)), E1, E2. reflexivity.
Qed.

Lemma lookup_auth : forall (st : state) c s es, lookup st c = (Some s, es) -> authorises st c = true.
Proof.
  intros st c s es Hl. destruct (authorises st c) eqn:Ha; [reflexivity|].
  rewrite (lookup_unauth Ha) in Hl. discriminate.
Qed.

(* On a route other than login, without the cookie of a live session: 401 (403 when the
   cross-site layer refuses first) and nothing at all happens -- no handler, no session change. *)
Theorem unauth_no_effect : forall table (st : state) q r,
  routes_guarded table = true ->
  mux table (q_method q) (q_path q) = MFound r ->
  is_login_route r = false ->
  authorises st (q_cookie q) = false ->
  api_step table st q =
    (if harden_blocks (q_method q) (q_origin q) (q_site q) then 403 else 401, []) /\
  apply_effects st (snd (api_step table st q)) = st.
Proof.
  intros table st q r Hg Hm Hl Ha. unfold Auth.api_step.
  destruct (harden_blocks _ _ _); [split; reflexivity|].
  rewrite Hm, (lookup_unauth Ha).
  destruct (mux_found Hm) as [Hin _].
  rewrite (routes_guarded_sound _ Hg _ Hin Hl). split; reflexivity.
Qed.

(* Anything that happens at all happens on a registered route, past the cross-site layer,
   and either on the login route or for the cookie of a live session. *)
Theorem effects_need_session : forall table (st : state) q,
  routes_guarded table = true ->
  snd (api_step table st q) <> [] ->
  harden_blocks (q_method q) (q_origin q) (q_site q) = false /\
  exists r, mux table (q_method q) (q_path q) = MFound r /\
            (is_login_route r = true \/ authorises st (q_cookie q) = true).
Proof.
  intros table st q Hg Hne.
  destruct (harden_blocks _ _ _) eqn:Hb;
    [destruct Hne; unfold Auth.api_step; rewrite Hb; reflexivity|].
  split; [reflexivity|].
  destruct (mux table (q_method q) (q_path q)) as [r| |] eqn:Hm;
    [|destruct Hne; unfold Auth.api_step; rewrite Hb, Hm; reflexivity..].
  exists r. split; [reflexivity|].
  destruct (is_login_route r) eqn:Hl; [left; reflexivity|right].
  destruct (authorises st (q_cookie q)) eqn:Ha; [reflexivity|].
  destruct Hne. rewrite (proj1 (unauth_no_effect table st q r Hg Hm Hl Ha)). reflexivity.
Qed.

(* A cross-site request is answered 403 before the mux is consulted: no route is looked up,
   no cookie is presented to the session store, no handler runs, nothing changes. *)
Theorem harden_first : forall table (st : state) q,
  cross_site q = true \/ preflight q = true ->
  api_step table st q = (403, []) /\ apply_effects st (snd (api_step table st q)) = st.
Proof.
  intros table st q Hc. unfold Auth.api_step. rewrite (cross_site_blocks Hc). split; reflexivity.
Qed.

(* A lookup at or after expiry refuses and does not extend. *)
Theorem expired_refused_not_extended : forall table (st : state) q sid uid e r,
  routes_guarded table = true ->
  q_cookie q = Some sid -> s_sess H st sid = Some (uid, e) -> e <= s_now H st ->
  mux table (q_method q) (q_path q) = MFound r -> is_login_route r = false ->
  fst (api_step table st q) <> 200 /\ snd (api_step table st q) = [] /\
  s_sess H (apply_effects st (snd (api_step table st q))) sid = Some (uid, e).
Proof.
  intros table st q sid uid e r Hg Hc Hs He Hm Hl.
  assert (Ha : authorises st (q_cookie q) = false).
  { rewrite Hc, (authorises_entry Hs). lia. }
  destruct (unauth_no_effect table st q r Hg Hm Hl Ha) as [E1 E2].
  rewrite E1. cbn [fst snd]. split; [destruct (harden_blocks _ _ _); discriminate|].
  split; [reflexivity|exact Hs].
Qed.

Definition eff_sid (e : effect) : option Z :=
  match e with
  | ECreate k _ _ | EDelete k | EExtend k _ => Some k
  | _ => None
  end.

Definition untouched (sid : Z) (es : list effect) : Prop :=
  Forall (fun e => eff_sid e <> Some sid) es.

Lemma apply_effects_cons : forall (st : state) e es,
  apply_effects st (e :: es) = apply_effects (apply_effect st e) es.
Proof. reflexivity. Qed.

Lemma apply_effects_app : forall a b (st : state),
  apply_effects st (a ++ b) = apply_effects (apply_effects st a) b.
Proof. intros. unfold Auth.apply_effects. apply fold_left_app. Qed.

Lemma apply_effect_now : forall (st : state) e, s_now H (apply_effect st e) = s_now H st.
Proof.
  intros st e. destruct e; cbn [Auth.apply_effect s_now]; try reflexivity.
  destruct (s_sess H st sid) as [[u x]|]; reflexivity.
Qed.

Lemma apply_effects_now : forall es (st : state), s_now H (apply_effects st es) = s_now H st.
Proof.
  induction es as [|e es IH]; intros st; [reflexivity|].
  rewrite apply_effects_cons, IH. apply apply_effect_now.
Qed.

Lemma apply_effect_frame : forall (st : state) e sid,
  eff_sid e <> Some sid -> s_sess H (apply_effect st e) sid = s_sess H st sid.
Proof.
  intros st e sid Hne.
  destruct e as [k u x|k|k x| | |]; cbn [Auth.apply_effect s_sess eff_sid] in *; try reflexivity.
  - unfold sess_set. destruct (Z.eqb_spec sid k); congruence.
  - unfold sess_del. destruct (Z.eqb_spec sid k); congruence.
  - destruct (s_sess H st k) as [[u e]|]; [|reflexivity].
    cbn [s_sess]. unfold sess_set. destruct (Z.eqb_spec sid k); congruence.
Qed.

Lemma apply_effects_frame : forall es (st : state) sid,
  untouched sid es -> s_sess H (apply_effects st es) sid = s_sess H st sid.
Proof.
  induction es as [|e es IH]; intros st sid Hu; [reflexivity|].
  inversion Hu; subst. rewrite apply_effects_cons, IH by assumption.
  apply apply_effect_frame. assumption.
Qed.

Lemma sess_origin_effects {es} {st : state} {sid v} :
  s_sess H (apply_effects st es) sid = Some v ->
  (exists v', s_sess H st sid = Some v') \/ (exists uid exp, In (ECreate sid uid exp) es).
Proof.
  revert st. induction es as [|e es IH]; intros st Hs; [left; eauto|].
  rewrite apply_effects_cons in Hs.
  destruct (IH _ Hs) as [[v' Hv]|(uid & exp & Hin)]; [|right; exists uid, exp; right; exact Hin].
  destruct e as [k u x|k|k x| | |]; cbn [Auth.apply_effect s_sess] in Hv; try (left; eauto; fail).
  - unfold sess_set in Hv. destruct (Z.eqb_spec sid k) as [->|_]; [right; do 2 eexists; left; reflexivity|left; eauto].
  - unfold sess_del in Hv. destruct (sid =? k); [discriminate|left; eauto].
  - destruct (s_sess H st k) as [[u e]|] eqn:Ek; [|left; eauto].
    cbn [s_sess] in Hv. unfold sess_set in Hv. destruct (Z.eqb_spec sid k) as [->|_]; left; eauto.
Qed.

Lemma created_lookup {st : state} {c sess e1} :
  looked st c sess e1 -> forall es, created (e1 ++ es) = created es.
Proof. intros [] es; [|destruct (_ <=? _)]; reflexivity. Qed.

Inductive handled (st : state) (r : route) (sess : option (Z * Z)) (q : request) : Z -> list effect -> Prop :=
| HdCreate u name pw h :
    kind_of r = HLogin -> sess = None ->
    login_creds (q_body q) = Some (name, pw) ->
    user_by_name H (s_users H st) name = Some u -> u_hash H u = Some h -> verify h pw = true ->
    handled st r sess q 200 [ECreate (q_fresh q) (u_id H u) (s_now H st + lifetime)]
| HdDelete c uid :
    kind_of r = HLogout -> sess = Some (c, uid) -> handled st r sess q 204 [EDelete c]
(* every other outcome: not the 204 by which life_req knows an accepted logout, no cookie
   issued, no session touched *)
| HdQuiet code es :
    (kind_of r = HLogout -> code <> 204) -> created es = None -> (forall k, untouched k es) ->
    handled st r sess q code es.

Lemma handle_handled : forall (st : state) r sess q,
  handled st r sess q (fst (handle st r sess q)) (snd (handle st r sess q)).
Proof.
  intros st r sess q.
  assert (Hno : forall code, (kind_of r = HLogout -> code <> 204) -> handled st r sess q code []).
  { intros code Hc. apply HdQuiet; [exact Hc|reflexivity|constructor]. }
  unfold Auth.handle. destruct (kind_of r) eqn:Hk.
  - destruct (login_creds (q_body q)) as [[name pw]|] eqn:Hc; [|now apply Hno].
    destruct sess as [s|]; [now apply Hno|].
    destruct (user_by_name H (s_users H st) name) as [u|] eqn:Hu; [|now apply Hno].
    destruct (u_hash H u) as [h|] eqn:Hh; [|now apply Hno].
    destruct (verify h pw) eqn:Hv; [|now apply Hno].
    eapply HdCreate; eauto.
  - destruct sess as [[c uid]|]; [now eapply HdDelete|now apply Hno].
  - destruct (q_body q) as [|name pw|cur new|v]; try now apply Hno.
    destruct sess as [[c uid]|]; [|now apply Hno].
    destruct ((cur <? 0) || (new <? 0)); [now apply Hno|].
    destruct (user_by_id H (s_users H st) uid) as [u|]; [|now apply Hno].
    destruct (u_hash H u) as [h|]; [|now apply Hno].
    destruct (verify h cur); [|now apply Hno].
    apply HdQuiet; [congruence|reflexivity|repeat constructor; discriminate].
  - destruct (q_body q) as [|name pw|cur new|v]; try now apply Hno.
    apply HdQuiet; [congruence|reflexivity|repeat constructor; discriminate].
  - now apply Hno.
Qed.

Inductive stepped (table : list route) (st : state) (q : request) : Z -> list effect -> Prop :=
| StUntouched code : touches table q = false -> stepped table st q code []
| StRefused r :
    routed table q r -> authorises st (q_cookie q) = false -> r_auth r = true ->
    stepped table st q 401 []
| StHandled r sess e1 code e2 :
    routed table q r -> looked st (q_cookie q) sess e1 -> handled st r sess q code e2 ->
    stepped table st q code (e1 ++ EHandler r :: e2).

Lemma api_step_stepped : forall table (st : state) q,
  stepped table st q (fst (api_step table st q)) (snd (api_step table st q)).
Proof.
  intros table st q. unfold Auth.api_step.
  destruct (harden_blocks _ _ _) eqn:Hb.
  { apply StUntouched. unfold touches. rewrite Hb. reflexivity. }
  destruct (mux table (q_method q) (q_path q)) as [r| |] eqn:Hm.
  2, 3: apply StUntouched; unfold touches; rewrite Hm; apply andb_false_r.
  assert (Hr : routed table q r) by (split; assumption).
  pose proof (lookup_looked st (q_cookie q)) as Hl.
  destruct (lookup st (q_cookie q)) as [sess e1]. cbn [fst snd] in Hl.
  pose proof (handle_handled st r sess q) as Hh.
  destruct (handle st r sess q) as [c e2]. cbn [fst snd] in Hh.
  destruct sess as [s|]; [|destruct (r_auth r) eqn:Ha]; cbn [fst snd].
  - eapply StHandled; eassumption.
  - inversion Hl; subst. eapply StRefused; eassumption.
  - eapply StHandled; eassumption.
Qed.

(* A session is created by one step only on the login route, past the cross-site layer, with
   the password that the stored (well-formed) hash of the named user verifies. *)
Theorem create_needs_password : forall table (st : state) q sid uid exp,
  In (ECreate sid uid exp) (snd (api_step table st q)) ->
  login_ok table st q = true /\ sid = q_fresh q /\ exp = s_now H st + lifetime.
Proof.
  intros table st q sid uid exp Hin.
  destruct (api_step_stepped table st q) as [code _|r _ _ _|r sess e1 code e2 [Hb Hm] Hl Hh];
    [destruct Hin..|].
  apply in_app_or in Hin. destruct Hin as [Hin|[Hin|Hin]]; [|discriminate|].
  - destruct Hl; [destruct Hin|]. destruct (_ <=? _); [|destruct Hin].
    destruct Hin as [Hin|[]]. discriminate.
  - destruct Hh as [u name pw h Hk Hsess Hcr Hu Hhash Hv|c u Hk Hsess|c es _ _ Hq].
    + destruct Hin as [Hin|[]]. inversion Hin; subst.
      split; [|split; reflexivity].
      unfold Auth.login_ok. rewrite Hb, Hm. cbn [negb andb].
      apply kind_login_iff in Hk. rewrite Hk, Hcr, Hu, Hhash. exact Hv.
    + destruct Hin as [Hin|[]]. discriminate.
    + destruct (proj1 (Forall_forall _ _) (Hq sid) _ Hin). reflexivity.
Qed.

(* a request without the cookie of a live session touches no session but the one it may create *)
Lemma unauth_untouched : forall table (st : state) q sid,
  authorises st (q_cookie q) = false -> q_fresh q <> sid ->
  untouched sid (snd (api_step table st q)).
Proof.
  intros table st q sid Ha Hf.
  destruct (api_step_stepped table st q) as [code _|r _ _ _|r sess e1 code e2 _ Hl Hh];
    [constructor..|].
  destruct (looked_unauth Hl Ha) as [-> ->]. constructor; [discriminate|].
  destruct Hh as [u name pw h _ _ _ _ _ _|c u _ Hsess|c es _ _ Hq]; [|discriminate|apply Hq].
  repeat constructor. cbn [eff_sid]. congruence.
Qed.

(* Even on the login route, which is exempt from the 401, an expired session is not touched. *)
Theorem expired_never_extended : forall table (st : state) q sid uid e,
  q_cookie q = Some sid -> s_sess H st sid = Some (uid, e) -> e <= s_now H st ->
  q_fresh q <> sid ->
  s_sess H (apply_effects st (snd (api_step table st q))) sid = Some (uid, e).
Proof.
  intros table st q sid uid e Hc Hs He Hf.
  rewrite apply_effects_frame; [exact Hs|].
  apply unauth_untouched; [|exact Hf].
  rewrite Hc, (authorises_entry Hs). lia.
Qed.

Definition dead (st : state) (sid : Z) : Prop :=
  match s_sess H st sid with
  | None => True
  | Some (_, e) => e <= s_now H st
  end.

(* How the life read off the trace relates to the session table.  The life learns of an expiry
   only when the id is next presented: until then it may hold an expiry that has passed, and
   the GC may already have removed the entry. *)
Definition Inv (st : state) (sid : Z) (l : lstate) : Prop :=
  match l with
  | LLive e => (exists u, s_sess H st sid = Some (u, e)) \/ (e <= s_now H st /\ dead st sid)
  | LNone => dead st sid
  end.

Lemma dead_unauth {st sid} : dead st sid <-> authorises st (Some sid) = false.
Proof.
  unfold dead, Auth.authorises.
  destruct (s_sess H st sid) as [[u e]|]; [rewrite Z.ltb_ge|]; tauto.
Qed.

Lemma inv_authorises {st sid l} : Inv st sid l ->
  authorises st (Some sid) = life_authorises (s_now H st) l.
Proof.
  intros HI. destruct l as [|e]; cbn [life_authorises].
  - apply dead_unauth, HI.
  - destruct HI as [[u Hu]|[He Hd]]; [exact (authorises_entry Hu)|].
    rewrite (proj1 dead_unauth Hd). lia.
Qed.

(* the relation survives the passing of time and the removal of an entry that has run out *)
Lemma inv_mono : forall st st' sid l,
  s_now H st <= s_now H st' ->
  s_sess H st' sid = s_sess H st sid \/ (s_sess H st' sid = None /\ dead st sid) ->
  Inv st sid l -> Inv st' sid l.
Proof.
  intros st st' sid l Hn Hs HI.
  assert (Hd : dead st sid -> dead st' sid).
  { unfold dead. destruct Hs as [->|[-> _]]; [|trivial]. destruct (s_sess H st sid) as [[u e]|]; [lia|trivial]. }
  destruct l as [|e]; [exact (Hd HI)|].
  destruct HI as [[u Hu]|[He HI]]; [|right; split; [lia|exact (Hd HI)]].
  destruct Hs as [Hs|[Hs Hdead]]; [left; exists u; congruence|right].
  split; [unfold dead in Hdead; rewrite Hu in Hdead; lia|apply Hd, Hdead].
Qed.

Lemma inv_frame {st es sid l} : untouched sid es -> Inv st sid l -> Inv (apply_effects st es) sid l.
Proof.
  intros Hu.
  apply inv_mono; [rewrite apply_effects_now; lia|left; apply apply_effects_frame; exact Hu].
Qed.

Lemma inv_live {st sid l u e} :
  Inv st sid l -> s_sess H st sid = Some (u, e) -> s_now H st < e -> l = LLive e.
Proof.
  intros HI Hs He. unfold Inv, dead in HI. rewrite Hs in HI.
  destruct l as [|e']; [lia|]. destruct HI as [[u' Hu]|[_ Hd]]; [congruence|lia].
Qed.

Lemma life_look_unauth now l : life_authorises now l = false -> life_look now l = LNone.
Proof.
  destruct l as [|e]; [reflexivity|]. cbn [life_authorises life_look]. intros Hl.
  replace (e <=? now) with true by lia. reflexivity.
Qed.

Lemma lookup_inv {st c sess e1 sid l} :
  looked st c sess e1 -> Inv st sid l ->
  Inv (apply_effects st e1) sid (if opt_is c sid then life_look (s_now H st) l else l).
Proof.
  intros Hl HI. destruct Hl as [c Ha|k u e Hs He].
  - (* refused: if it is sid, the entry is dead, and the life has run out or does so now *)
    destruct c as [k|]; [|exact HI]. cbn [opt_is].
    destruct (Z.eqb_spec k sid) as [->|_]; [|exact HI].
    rewrite life_look_unauth by (rewrite <- (inv_authorises HI); exact Ha).
    apply dead_unauth, Ha.
  - cbn [opt_is]. destruct (Z.eqb_spec k sid) as [->|Hne].
    + pose proof (inv_live HI Hs He) as ->. cbn [life_look].
      replace (e <=? s_now H st) with false by lia.
      destruct (e - s_now H st <=? extend_threshold); [|exact HI].
      left. exists u. unfold Auth.apply_effects. cbn [fold_left Auth.apply_effect]. rewrite Hs.
      cbn [s_sess]. unfold sess_set. rewrite Z.eqb_refl. reflexivity.
    + (* some other id is presented: at most that one is extended *)
      apply inv_frame; [|exact HI]. destruct (_ <=? _); repeat constructor.
      cbn [eff_sid]. congruence.
Qed.

Lemma req_inv : forall table st q code es sid l,
  api_step table st q = (code, es) -> Inv st sid l ->
  Inv (apply_effects st es) sid
      (life_req H table sid (s_now H st) l
                {| x_req := q; x_status := code; x_new := created es; x_effects := es |}).
Proof.
  intros table st q code es sid l Hs HI.
  pose proof (api_step_stepped table st q) as Hst. rewrite Hs in Hst. cbn [fst snd] in Hst.
  unfold life_req. cbn [x_req x_status x_new].
  destruct Hst as [code Ht|r Hr Ha _|r sess e1 code e2 Hr Hl Hh].
  - rewrite Ht. exact HI.
  - rewrite (routed_touches Hr), andb_false_r.
    exact (lookup_inv (LkRefused _ _ Ha) HI).
  - (* a handler ran, in the state st1 and with the life l1 that the lookup left; the lookup issues no
       cookie, so what the exchange creates is what the handler's effects create *)
    pose proof (lookup_inv Hl HI) as HI1.
    rewrite (created_lookup Hl), apply_effects_app, (routed_touches Hr).
    cbn [andb]. change (created (EHandler r :: e2)) with (created e2).
    rewrite apply_effects_cons. cbn [Auth.apply_effect].
    set (st1 := apply_effects st e1) in *.
    set (l1 := if opt_is (q_cookie q) sid then life_look (s_now H st) l else l) in *.
    pose proof (routed_logout Hr) as Hlk.
    destruct Hh as [u name pw h Hk Hsess Hcr Hu Hhash Hv|c uid Hk Hsess|c es Hc Hn Hq].
    + (* login created the session q_fresh q *)
      (* the status is 200, so this is not the 204 of an accepted logout *)
      cbn [Auth.created find opt_is]. rewrite andb_false_r.
      destruct (Z.eqb_spec (q_fresh q) sid) as [<-|Hne].
      * left. exists (u_id H u). cbn. unfold sess_set. rewrite Z.eqb_refl. reflexivity.
      * apply inv_frame; [|exact HI1]. repeat constructor. cbn [eff_sid]. congruence.
    + (* logout destroyed the presented session *)
      subst sess. assert (Hck : q_cookie q = Some c) by (inversion Hl; reflexivity).
      cbn [Auth.created find]. rewrite Hck, (proj2 Hlk Hk), !andb_true_r. cbn [opt_is].
      destruct (Z.eqb_spec c sid) as [<-|Hne].
      * unfold Inv, dead. cbn. unfold sess_del. rewrite Z.eqb_refl. exact I.
      * apply inv_frame; [|exact HI1]. repeat constructor. cbn [eff_sid]. congruence.
    + (* no session effect, and no accepted logout: a logout request is routed to the logout handler
         (Hlk), whose quiet outcomes are not 204 (Hc) *)
      rewrite Hn, <- andb_assoc. cbn [opt_is].
      replace (is_logout_req q && (c =? 204)) with false.
      * rewrite andb_false_r. apply inv_frame; [apply Hq|exact HI1].
      * destruct (is_logout_req q); [|reflexivity]. symmetry. apply Z.eqb_neq, Hc, Hlk. reflexivity.
Qed.

Definition life_obs (table : list route) (sid : Z) (nl : Z * lstate) (o : obs H) : Z * lstate :=
  life H table sid (fst nl) (snd nl) [o].

Lemma step_inv : forall table st ev sid l,
  Inv st sid l ->
  let '(st', o) := step table st ev in
  let '(now', l') := life H table sid (s_now H st) l [o] in
  now' = s_now H st' /\ Inv st' sid l'.
Proof.
  intros table st ev sid l HI. destruct ev as [q|d| |uid h]; cbn [Auth.step].
  - destruct (api_step table st q) as [code es] eqn:Hs. cbn [life].
    split; [symmetry; apply apply_effects_now|]. apply req_inv; assumption.
  - cbn [life s_now]. split; [reflexivity|].
    apply (inv_mono st); [cbn [s_now]; lia|left; reflexivity|exact HI].
  - (* the GC removes only entries that have run out *)
    cbn [life s_now]. split; [reflexivity|].
    apply (inv_mono st); [cbn [s_now]; lia| |exact HI].
    cbn [s_sess]. unfold sess_gc, dead. destruct (s_sess H st sid) as [[u e]|]; [|left; reflexivity].
    destruct (Z.ltb_spec e (s_now H st)); [right; split; [reflexivity|lia]|left; reflexivity].
  - cbn [life s_now]. split; [reflexivity|]. exact HI.
Qed.

Lemma life_cons : forall table sid now l (o : obs H) os,
  life H table sid now l (o :: os) =
  let '(now1, l1) := life H table sid now l [o] in life H table sid now1 l1 os.
Proof. intros. destruct o; reflexivity. Qed.

Lemma run_inv : forall table evs st sid l,
  Inv st sid l ->
  let '(st', tr) := run table st evs in
  let '(now', l') := life H table sid (s_now H st) l tr in
  now' = s_now H st' /\ Inv st' sid l'.
Proof.
  intros table evs. induction evs as [|ev evs IH]; intros st sid l HI; cbn [Auth.run].
  - split; [reflexivity|exact HI].
  - pose proof (step_inv table st ev sid l HI) as Hst.
    destruct (step table st ev) as [st1 o].
    destruct (life H table sid (s_now H st) l [o]) as [now1 l1] eqn:El. destruct Hst as [-> HI1].
    specialize (IH st1 sid l1 HI1). destruct (run table st1 evs) as [st2 os].
    rewrite life_cons, El. exact IH.
Qed.

(* After any history, from any state related to a life, the table and the life agree on
   whether the cookie authorises. *)
Theorem lifecycle_from : forall table (st0 : state) evs sid l0,
  Inv st0 sid l0 ->
  let '(st, tr) := run table st0 evs in
  authorises st (Some sid) =
    life_authorises (s_now H st) (snd (life H table sid (s_now H st0) l0 tr)).
Proof.
  intros table st0 evs sid l0 HI. pose proof (run_inv table evs st0 sid l0 HI) as Hr.
  destruct (run table st0 evs) as [st tr].
  destruct (life H table sid (s_now H st0) l0 tr) as [now' l']. apply inv_authorises, Hr.
Qed.

(* The lifecycle theorem: after ANY history (requests of any kind, clock advances, GC passes,
   out-of-band edits of the stored hashes) started from an empty session table, a cookie
   authorises at the current instant exactly when the life read off the observable trace says
   so: issued by a successful login, no accepted logout with it since, never presented at or
   after its expiry, and now before the expiry obtained by the sliding rule. *)
Theorem session_lifecycle : forall table (st0 : state) evs sid,
  (forall k, s_sess H st0 k = None) ->
  let '(st, tr) := run table st0 evs in
  authorises st (Some sid) =
    life_authorises (s_now H st) (snd (life H table sid (s_now H st0) LNone tr)).
Proof.
  intros table st0 evs sid Hempty. apply lifecycle_from.
  unfold Inv, dead. rewrite Hempty. exact I.
Qed.

Lemma life_req_none : forall table sid now (x : exch H),
  x_new H x <> Some sid -> life_req H table sid now LNone x = LNone.
Proof.
  intros table sid now x Hnew. unfold life_req.
  replace (opt_is (x_new H x) sid) with false.
  - destruct (touches table (x_req H x) && opt_is (q_cookie (x_req H x)) sid); cbn [life_look andb];
      destruct (is_logout_req (x_req H x) && (x_status H x =? 204)); reflexivity.
  - destruct (x_new H x) as [k|]; [|reflexivity]. symmetry. apply Z.eqb_neq. congruence.
Qed.

Lemma life_none_stays : forall table sid tr now,
  (forall x, In (OReq x) tr -> x_new H x <> Some sid) ->
  snd (life H table sid now LNone tr) = LNone.
Proof.
  intros table sid tr. induction tr as [|o tr IH]; intros now Hnew; [reflexivity|].
  assert (Hnew' : forall x, In (OReq x) tr -> x_new H x <> Some sid)
    by (intros x Hx; apply Hnew; right; exact Hx).
  destruct o as [x|d| |]; cbn [life]; [rewrite life_req_none by (apply Hnew; left; reflexivity)|..];
    apply IH, Hnew'.
Qed.

(* Once dead (absent, logged out or expired), a session id
   stays dead through every continuation in which no new login happens to issue the same id *)
Theorem dead_stays_dead : forall table (st : state) sid evs,
  authorises st (Some sid) = false ->
  (match s_sess H st sid with Some (_, e) => e <= s_now H st | None => True end) ->
  let '(st', tr) := run table st evs in
  (forall x, In (OReq x) tr -> x_new H x <> Some sid) ->
  authorises st' (Some sid) = false.
Proof.
  intros table st sid evs _ Hd.
  pose proof (lifecycle_from table st evs sid LNone Hd) as Hr.
  destruct (run table st evs) as [st' tr]. intros Hnew.
  rewrite Hr, (life_none_stays table sid tr _ Hnew). reflexivity.
Qed.

Lemma step_sess_origin {table} {st : state} {ev sid v} :
  s_sess H (fst (step table st ev)) sid = Some v ->
  (exists v', s_sess H st sid = Some v') \/
  (exists q, ev = EvReq q /\ login_ok table st q = true /\ q_fresh q = sid).
Proof.
  intros Hs. destruct ev as [q|d| |uid h]; cbn [Auth.step] in Hs.
  - destruct (api_step table st q) as [code es] eqn:Ha. cbn [fst] in Hs.
    destruct (sess_origin_effects Hs) as [Hold|(uid & exp & Hin)]; [left; exact Hold|right].
    destruct (create_needs_password table st q sid uid exp) as (Hok & -> & _); [rewrite Ha; exact Hin|].
    exists q. split; [reflexivity|split; [exact Hok|reflexivity]].
  - left. eauto.
  - cbn [fst s_sess] in Hs. unfold sess_gc in Hs.
    destruct (s_sess H st sid) as [[u e]|]; [|discriminate]. left. eauto.
  - left. eauto.
Qed.

Lemma run_cons_fst : forall table (st : state) ev evs,
  fst (run table st (ev :: evs)) = fst (run table (fst (step table st ev)) evs).
Proof.
  intros. cbn [Auth.run]. destruct (step table st ev) as [st1 o]. cbn [fst].
  destruct (run table st1 evs). reflexivity.
Qed.

(* Every session in the table after a history was there at the start or was issued by a login
   request that presented the password verifying against the hash stored at that moment. *)
Theorem session_origin : forall table evs (st : state) sid v,
  s_sess H (fst (run table st evs)) sid = Some v ->
  (exists v', s_sess H st sid = Some v') \/
  exists evs1 q evs2, evs = evs1 ++ EvReq q :: evs2 /\
    login_ok table (fst (run table st evs1)) q = true /\ q_fresh q = sid.
Proof.
  intros table evs. induction evs as [|ev evs IH]; intros st sid v Hs; [left; exists v; exact Hs|].
  rewrite run_cons_fst in Hs.
  destruct (IH _ _ _ Hs) as [[v' Hv]|(evs1 & q & evs2 & -> & Hok & Hf)].
  - destruct (step_sess_origin Hv) as [Hold|(q & -> & Hok & Hf)]; [left; exact Hold|].
    right. exists [], q, evs. split; [reflexivity|split; assumption].
  - right. exists (ev :: evs1), q, evs2. rewrite run_cons_fst. split; [reflexivity|split; assumption].
Qed.

Theorem sessions_need_password : forall table evs (st0 : state) sid v,
  (forall k, s_sess H st0 k = None) ->
  s_sess H (fst (run table st0 evs)) sid = Some v ->
  exists evs1 q evs2, evs = evs1 ++ EvReq q :: evs2 /\
    login_ok table (fst (run table st0 evs1)) q = true /\ q_fresh q = sid.
Proof.
  intros table evs st0 sid v Hempty Hs.
  destruct (session_origin _ _ _ _ _ Hs) as [[v' Hv]|Hr]; [|exact Hr].
  rewrite Hempty in Hv. discriminate.
Qed.

End WithHash.
