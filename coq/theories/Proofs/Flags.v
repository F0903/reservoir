(* Proofs about Model/Flags.v.  A history of flags and API updates acts on each setting through its own
   projection [proj path ops] and on nothing else (wrun_entries); so the whole configuration is, setting by
   setting, what Proofs/ConfigProp.v says of one property under that projected history, and the theorems
   about flags are read off ref_read and ref_base. *)
From Reservoir Require Import Base.Prelude Model.ByteSize Model.ConfigProp Proofs.ConfigProp Model.Flags.
From Coq Require Import String.

Fixpoint nodupb {A} (eqb : A -> A -> bool) (l : list A) : bool :=
  match l with [] => true | x :: r => negb (existsb (eqb x) r) && nodupb eqb r end.

Lemma nodupb_sound {A} (eqb : A -> A -> bool) :
  (forall a, eqb a a = true) -> forall l, nodupb eqb l = true -> NoDup l.
Proof.
  intros Hrefl. induction l as [|x r IH]; cbn; [constructor|].
  intros [Hx Hr]%andb_true_iff. constructor; [|auto]. intros Hin. apply negb_true_iff in Hx.
  assert (existsb (eqb x) r = true) by (apply existsb_exists; eauto). congruence.
Qed.

(* what a history does to one setting is what its operations do to it, one after the other *)
Lemma proj_flat_map path ops : proj path ops = flat_map (fun op => proj path [op]) ops.
Proof.
  induction ops as [|op ops IH]; [reflexivity|]. cbn [flat_map]. rewrite <- IH.
  destruct op as [name raw|p v]; cbn [proj].
  - destruct (flag_target name raw) as [[p v]| |]; try reflexivity.
    destruct (String.eqb path p); reflexivity.
  - destruct (String.eqb path p); reflexivity.
Qed.

Lemma proj_app path a b : proj path (a ++ b) = proj path a ++ proj path b.
Proof. rewrite !proj_flat_map. apply flat_map_app. Qed.

Lemma proj_cons path op r : proj path (op :: r) = proj path [op] ++ proj path r.
Proof. exact (proj_app path [op] r). Qed.

Lemma proj_flag path name raw p v :
  flag_target name raw = Ok (p, v) -> proj path [WFlag name raw] = if String.eqb path p then [COverride v] else [].
Proof. intros E. cbn [proj]. rewrite E. reflexivity. Qed.

Lemma in_proj_override path v ops :
  In (COverride v) (proj path ops) -> exists name raw, In (WFlag name raw) ops /\ flag_target name raw = Ok (path, v).
Proof.
  rewrite proj_flat_map, in_flat_map. intros ([name raw|p w] & Hin & H); cbn [proj] in H.
  - destruct (flag_target name raw) as [[p w]| |] eqn:E; try contradiction.
    destruct (String.eqb_spec path p) as [<-|]; [|contradiction]. destruct H as [[= <-]|[]]. eauto.
  - destruct (String.eqb path p); [destruct H as [[=]|[]]|contradiction].
Qed.

Lemma wstep_entries c op c' :
  wstep c op = Ok c' -> c' = map (fun kp => (fst kp, crun (snd kp) (proj (fst kp) [op]))) c.
Proof.
  destruct op as [name raw|path v]; cbn [wstep proj]; unfold flag_target.
  - destruct (lookup name flag_table) as [[path cv]|]; [|discriminate].
    destruct (conv cv raw) as [v| |]; cbn [res_bind]; try discriminate.
    intros [= <-]. apply map_ext. intros [k p]. cbn [fst snd]. destruct (String.eqb k path); reflexivity.
  - intros [= <-]. apply map_ext. intros [k p]. cbn [fst snd]. destruct (String.eqb k path); reflexivity.
Qed.

Lemma wrun_entries ops : forall c c',
  wrun c ops = Ok c' -> c' = map (fun kp => (fst kp, crun (snd kp) (proj (fst kp) ops))) c.
Proof.
  induction ops as [|op ops IH]; intros c c' H.
  - cbn in H. injection H as <-. rewrite <- (map_id c) at 1. apply map_ext. intros [k p]. reflexivity.
  - cbn [wrun] in H. destruct (wstep c op) as [c1| |] eqn:E; cbn [res_bind] in H; try discriminate.
    apply IH in H. apply wstep_entries in E. subst c1. rewrite map_map in H. subst c'.
    apply map_ext. intros [k p]. cbn [fst snd]. rewrite (proj_cons k op ops), crun_app. reflexivity.
Qed.

(* The whole configuration through any history of flags and accepted API updates: every setting is read and
   saved as its own projected history says (last flag that addresses it, else last update, else initial value;
   saved: last update, else initial value). *)
Theorem whole_config_history vals ops c' :
  wrun (fresh vals) ops = Ok c' ->
  eff_of c' = map (fun kv => (fst kv, ref_read (proj (fst kv) ops) (snd kv))) vals /\
  saved_of c' = map (fun kv => (fst kv, ref_base (proj (fst kv) ops) (snd kv))) vals.
Proof.
  intros H. apply wrun_entries in H. subst c'. unfold eff_of, saved_of, fresh. rewrite !map_map. cbn [fst snd].
  split; apply map_ext; intros [k v]; cbn [fst snd]; f_equal;
    destruct (override_wins_not_saved_lemma v (proj k ops)) as (H1 & H2 & _); assumption.
Qed.

Lemma ref_base_updates_only path ops : forall b : fval,
  ref_base (proj path ops) b = ref_base (proj path (updates_only ops)) b.
Proof.
  induction ops as [|op ops IH]; intros b; [reflexivity|].
  destruct op as [name raw|p v]; cbn [updates_only filter proj]; fold (updates_only ops).
  - destruct (flag_target name raw) as [[p v]| |]; try apply IH.
    destruct (String.eqb path p); apply IH.
  - destruct (String.eqb path p); apply IH.
Qed.

Lemma wrun_updates_ok ops : forall c, exists c', wrun c (updates_only ops) = Ok c'.
Proof.
  induction ops as [|op ops IH]; intros c; [exists c; reflexivity|].
  destruct op as [name raw|p v]; cbn [updates_only filter]; fold (updates_only ops); apply IH.
Qed.

(* Flags are never saved: the saved configuration is the one the same API updates alone would have produced. *)
Theorem saved_independent_of_flags vals ops c1 :
  wrun (fresh vals) ops = Ok c1 ->
  exists c2, wrun (fresh vals) (updates_only ops) = Ok c2 /\ saved_of c1 = saved_of c2.
Proof.
  intros H1. destruct (wrun_updates_ok ops (fresh vals)) as [c2 H2]. exists c2. split; [exact H2|].
  destruct (whole_config_history _ _ _ H1) as [_ S1]. destruct (whole_config_history _ _ _ H2) as [_ S2].
  rewrite S1, S2. apply map_ext. intros [k v]. cbn [fst snd]. rewrite ref_base_updates_only. reflexivity.
Qed.

(* A flag wins, also after later API updates: once a flag has addressed a setting, and whatever the API updates
   (of this or any other setting) and flags for other settings that come before or after it, the running process
   reads the flag's value there. *)
Theorem flag_wins vals ops1 name raw ops2 path v c' :
  wrun (fresh vals) (ops1 ++ WFlag name raw :: ops2) = Ok c' ->
  flag_target name raw = Ok (path, v) ->
  (forall n r w, In (WFlag n r) ops2 -> flag_target n r <> Ok (path, w)) ->
  forall kv, In kv (eff_of c') -> fst kv = path -> snd kv = v.
Proof.
  intros H Ht Hno kv Hin Hk.
  destruct (whole_config_history _ _ _ H) as [E _]. rewrite E in Hin.
  apply in_map_iff in Hin as ([k v0] & <- & _). cbn [fst snd] in *. subst k.
  rewrite proj_app, (proj_cons path _ ops2), (proj_flag _ _ _ _ _ Ht), String.eqb_refl.
  apply ref_read_override_last.
  intros w Hw. destruct (in_proj_override _ _ _ Hw) as (n & r & Hi & Hq). exact (Hno n r w Hi Hq).
Qed.

(* A flag touches the setting it addresses and no other. *)
Theorem flag_only_target c name raw path v c' :
  wstep c (WFlag name raw) = Ok c' -> flag_target name raw = Ok (path, v) ->
  eff_of c' = map (fun kv => if String.eqb (fst kv) path then (fst kv, v) else kv) (eff_of c) /\
  saved_of c' = saved_of c.
Proof.
  intros H Ht. apply wstep_entries in H as ->. unfold eff_of, saved_of. rewrite !map_map.
  split; apply map_ext; intros [k q]; cbn [fst snd]; rewrite (proj_flag _ _ _ _ _ Ht);
    destruct (String.eqb k path); try reflexivity; destruct q as [[b o] [s|]]; reflexivity.
Qed.

(* the documented table: no flag twice, no setting addressed by two flags *)
Lemma flag_table_injective :
  NoDup (map fst flag_table) /\ NoDup (map (fun e => fst (snd e)) flag_table).
Proof. split; apply (nodupb_sound String.eqb String.eqb_refl); reflexivity. Qed.
