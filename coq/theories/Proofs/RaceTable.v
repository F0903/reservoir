(* Every operation of the access table obeys the lockset discipline, for every
   key -> shard map; hence no interleaving of any number of table operations
   contains a data race (Proofs/Race.v: lockset_sound). *)
From Reservoir Require Import Base.Prelude Model.Sync Model.Race Model.RaceTable Proofs.Discipline Proofs.Race.

Local Open Scope nat_scope.

Lemma dec_code q r : r < 3 ->
  dec (S (S (r + q * 3))) = match r with 0 => LMeta q | 1 => LSubs q | _ => LSyncMap q end.
Proof.
  intros Hr. cbn [dec Nat.sub]. rewrite Nat.sub_0_r, Nat.mod_add, Nat.div_add, Nat.mod_small, Nat.div_small by lia.
  reflexivity.
Qed.

Lemma dec_enc x : dec (enc x) = x.
Proof.
  destruct x as [| |k|e|m]; try reflexivity; unfold enc.
  - replace (3 * k + 2) with (S (S (0 + k * 3))) by lia. apply dec_code. lia.
  - replace (3 * e + 3) with (S (S (1 + e * 3))) by lia. apply dec_code. lia.
  - replace (3 * m + 4) with (S (S (2 + m * 3))) by lia. apply dec_code. lia.
Qed.

Section Table.
  Variable sh : nat -> nat.
  Notation Gs := (G sh).

  (* [guarded Gs h p] does not evaluate on a table program: the locks are [Shard (sh k)] with [sh] and
     [k] variables, and [hmem] and [hremove1] stop at the comparison of two of them.  The rules are
     the equations of [guarded] read from right to left, one per constructor of [rprog], for the case
     in which the comparison is of the head of the held list with itself ([hmem_head],
     [hremove1_head]): the table releases the lock it took last ([g_rel]) and accesses a location
     under the lock it took last ([g_read], [g_write]), nothing else.  The premise [guard_of sh x = g]
     of the access rules is there because hints are matched syntactically and the table writes
     [shard_of sh k] where [guard_of sh (LMeta k)] computes to it.
     With these rules [auto] runs [guarded] symbolically.  A goal is [guarded Gs h p = true], the head
     of [p] fits one rule, and the premises of that rule are the same question about the subprograms:
     the search never has a second rule to go back to, it visits each node of the program once and
     its depth is the length of the longest branch.  The core hints stay out: [eq_refl] would have
     every step try to evaluate [guarded] on the whole program. *)
  Lemma g_acq l m h k : guarded Gs ((l, m) :: h) k = true -> guarded Gs h (RAcq l m k) = true.
  Proof. auto. Qed.
  Lemma g_rel l m h k : guarded Gs h k = true -> guarded Gs ((l, m) :: h) (RRel l m k) = true.
  Proof. cbn [guarded]. rewrite hmem_head, hremove1_head. auto. Qed.
  Lemma g_try l m h a b :
    guarded Gs ((l, m) :: h) a = true -> guarded Gs h b = true -> guarded Gs h (RTry l m a b) = true.
  Proof. cbn [guarded]. intros -> ->. reflexivity. Qed.
  Lemma g_choice h a b : guarded Gs h a = true -> guarded Gs h b = true -> guarded Gs h (RChoice a b) = true.
  Proof. cbn [guarded]. intros -> ->. reflexivity. Qed.
  Lemma g_step h k : guarded Gs h k = true -> guarded Gs h (RStep k) = true.
  Proof. auto. Qed.
  Lemma g_done h : guarded Gs h RDone = true.
  Proof. reflexivity. Qed.
  Lemma g_read x g m h k :
    guard_of sh x = g -> guarded Gs ((g, m) :: h) k = true -> guarded Gs ((g, m) :: h) (acc x false k) = true.
  Proof.
    intros <- Hk. unfold acc. cbn [guarded]. unfold G at 1. rewrite dec_enc, Hk.
    destruct m; rewrite hmem_head, ?orb_true_r; reflexivity.
  Qed.
  Lemma g_write x g h k :
    guard_of sh x = g -> guarded Gs ((g, MW) :: h) k = true -> guarded Gs ((g, MW) :: h) (acc x true k) = true.
  Proof. intros <- Hk. unfold acc. cbn [guarded]. unfold G at 1. rewrite dec_enc, Hk, hmem_head. reflexivity. Qed.

  Hint Resolve g_acq g_rel g_try g_choice g_step g_done g_read g_write : table.
  Hint Extern 0 (guard_of _ _ = _) => reflexivity : table.

  Lemma scan_guarded ks : forall h k, guarded Gs h k = true -> guarded Gs h (scan sh ks k) = true.
  Proof. induction ks; intros h k Hk; cbn [scan]; auto 8 with table nocore. Qed.

  Hint Resolve scan_guarded : table.

  Lemma remove_loop_guarded vs : forall h k, guarded Gs h k = true -> guarded Gs h (remove_loop sh vs k) = true.
  Proof. induction vs; intros h k Hk; cbn [remove_loop]; unfold lookup, remove_entry; auto 20 with table nocore. Qed.

  Hint Resolve remove_loop_guarded : table.

  Lemma deliver_guarded e n : guarded Gs [] (op_deliver e n) = true.
  Proof. induction n; cbn [op_deliver]; unfold crit; auto 8 with table nocore. Qed.

  Lemma gc_loop_guarded m n : guarded Gs [] (op_session_gc_loop m n) = true.
  Proof. induction n; cbn [op_session_gc_loop]; auto 8 with table nocore. Qed.

  Hint Resolve deliver_guarded gc_loop_guarded : table.

  Theorem table_guarded p : table_op sh p -> guarded Gs [] p = true.
  Proof.
    destruct 1;
      unfold op_get, op_update, op_delete, op_store_memory, op_store_file, op_janitor_cycle, op_budget_listener,
             op_subscribe, op_unsubscribe, op_fire, op_sm_get, op_sm_set, op_sm_getorset, op_sm_iterate,
             op_get_session, op_session_gc, op_get_cert,
             evict, snapshot, lookup, remove_entry, insert, read_memcap, crit.
    all: auto 40 with table nocore.
  Qed.

  Theorem table_race_free ps sched s' :
    (forall p, In p ps -> table_op sh p) ->
    rrun (rspawn ps) sched = Some s' -> has_race s' = false.
  Proof.
    intros Ht. apply (lockset_sound Gs). apply forallb_forall. intros p Hp. apply table_guarded, Ht, Hp.
  Qed.
End Table.
