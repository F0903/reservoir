(* Proofs about Model/FetchOrder.v (C01): when fetches are serialised the versions served from the
   store never go backwards, because at most one answer is outstanding and it is not older than the
   stored one ([finv]); without serialisation a late store of an older answer refutes it, shown by a
   history given in full. *)
From Reservoir Require Import Base.Prelude Model.FetchOrder.
Local Open Scope nat_scope.

Definition cached_le (c : option nat) (n : nat) : Prop := match c with Some v => v <= n | None => True end.
Definition head_le (l : list nat) (c : option nat) : Prop :=
  match l, c with x :: _, Some v => x <= v | _ :: _, None => False | [], _ => True end.

(* serialised fetches: at most one outstanding answer, not older than what is stored *)
Definition finv (s : fstate) : Prop :=
  cached_le (f_cached s) (f_origin s) /\
  match f_inflight s with
  | [] => True
  | [v] => v <= f_origin s /\ cached_le (f_cached s) v
  | _ => False
  end /\
  monotone_log (f_served s) = true /\ head_le (f_served s) (f_cached s).

Lemma fstep_inv s a s' : fstep true s a = Some s' -> finv s -> finv s'.
Proof.
  unfold finv. destruct s as [o c fl sv]. intros H (Hc & Hi & Hm & Hh). destruct a as [| |i|]; cbn in *.
  - injection H as <-. cbn. repeat split; auto.
    + destruct c; cbn in *; lia.
    + destruct fl as [|v [|]]; [exact I|split; [lia|apply Hi]|exact Hi].
  - destruct fl; [|discriminate]. injection H as <-. cbn. auto.
  - destruct fl as [|v [|]]; [destruct i; discriminate| |contradiction].
    destruct i as [|[|]]; [|discriminate..]. injection H as <-. cbn. repeat split; [apply Hi|exact Hm|].
    destruct sv, c; cbn in *; auto; lia.
  - destruct c as [v|]; [|discriminate]. injection H as <-. cbn. repeat split; auto.
    destruct sv; [reflexivity|]. apply andb_true_iff. split; [apply Nat.leb_le, Hh|exact Hm].
Qed.

Lemma frun_inv l : forall s s', frun true s l = Some s' -> finv s -> finv s'.
Proof.
  induction l as [|a r IH]; cbn; intros s s' H I; [injection H as <-; exact I|].
  destruct (fstep true s a) as [s1|] eqn:E; [|discriminate]. exact (IH s1 s' H (fstep_inv s a s1 E I)).
Qed.

Theorem serialized_fetches_monotone l s' : frun true f_init l = Some s' -> monotone_log (f_served s') = true.
Proof.
  intros H. destruct (frun_inv l _ _ H) as (_ & _ & Hm & _); [|exact Hm]. unfold finv. cbn. auto.
Qed.

(* two independent fetches: the older answer is stored last and a later request gets the replaced version *)
Theorem unserialized_fetches_refuted :
  exists l s', frun false f_init l = Some s' /\ monotone_log (f_served s') = false.
Proof.
  exists [FBump; FAnswer; FBump; FAnswer; FStore 1; FServe; FStore 0; FServe],
         {| f_origin := 2; f_cached := Some 1; f_inflight := []; f_served := [1; 2] |}.
  split; reflexivity.
Qed.
