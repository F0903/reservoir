(* Proofs about Model/Phc.v: the only operation of ParsePHC that can panic is the
   base64 decode into a caller-supplied buffer; a buffer of DecodedLen(len src)
   bytes always suffices, a fixed 16-byte array does not. *)
From Reservoir Require Import Base.Prelude Model.Phc.

(* The decoder never writes more than 6 bits per consumed character:
   with 8*|out| + 6*|pend| + 6*|src| <= 8*cap + 7 it cannot run out of buffer. *)
Lemma b64_go_no_panic : forall src cap pend out,
  8 * zlen out + 6 * zlen pend + 6 * zlen src <= 8 * cap + 7 ->
  b64_go cap src pend out <> Panic.
Proof.
  assert (Hnil : zlen (@nil Z) = 0) by reflexivity.
  induction src as [|ch r IH]; intros cap pend out Hinv; cbn [b64_go].
  - destruct pend as [|a [|b [|c [|d pend]]]]; try discriminate; rewrite !zlen_cons in Hinv.
    + destruct (Z.leb_spec (zlen out + 1) cap); [discriminate|lia].
    + destruct (Z.leb_spec (zlen out + 2) cap); [discriminate|lia].
  - rewrite zlen_cons in Hinv. pose proof (zlen_nonneg r).
    destruct (b64val ch) as [v|];
      [|destruct ((ch =? 10) || (ch =? 13)); [apply IH; lia|discriminate]].
    destruct pend as [|a [|b [|c [|d pend]]]].
    all: rewrite ?zlen_cons in Hinv.
    4: destruct (Z.leb_spec (zlen out + 3) cap); [|lia].
    all: apply IH; rewrite ?zlen_app, ?zlen_cons; lia.
Qed.

(* any buffer at least DecodedLen long is enough; DecodeString allocates exactly that *)
Lemma b64_decode_into_enough : forall cap s,
  b64_decoded_len (zlen s) <= cap -> b64_decode_into cap s <> Panic.
Proof.
  intros cap s Hc. apply b64_go_no_panic. unfold b64_decoded_len in Hc.
  change (zlen (@nil Z)) with 0. Z.div_mod_to_equations. lia.
Qed.

Lemma b64_decode_string_no_panic : forall s, b64_decode_string s <> Panic.
Proof. intros s. apply b64_decode_into_enough, Z.le_refl. Qed.

(* decoders of different capacity run the same automaton; they differ only in the capacity test *)
Lemma b64_go_cap : forall src cap1 cap2 pend out,
  b64_go cap1 src pend out <> Panic -> b64_go cap2 src pend out <> Panic ->
  b64_go cap1 src pend out = b64_go cap2 src pend out.
Proof.
  induction src as [|ch r IH]; intros cap1 cap2 pend out H1 H2; cbn [b64_go] in *.
  - destruct pend as [|a [|b [|c [|d pend]]]]; try reflexivity.
    + destruct (zlen out + 1 <=? cap1), (zlen out + 1 <=? cap2); congruence.
    + destruct (zlen out + 2 <=? cap1), (zlen out + 2 <=? cap2); congruence.
  - destruct (b64val ch) as [v|].
    + destruct pend as [|a [|b [|c [|d pend]]]]; try (apply IH; assumption).
      destruct (zlen out + 3 <=? cap1), (zlen out + 3 <=? cap2); try congruence.
      apply IH; assumption.
    + destruct ((ch =? 10) || (ch =? 13)); [apply IH; assumption|reflexivity].
Qed.

(* ParsePHC consults its salt decoder once, and nothing after that call can panic *)
Lemma phc_parse_with_shape : forall s,
  (forall dec, phc_parse_with dec s = Err) \/
  exists salt k, (forall sb, k sb <> Panic) /\
                 forall dec, phc_parse_with dec s = res_bind (dec salt) k.
Proof.
  intros s. unfold phc_parse_with.
  destruct (nilb (trim_space s)); [left; reflexivity|].
  destruct (split_on 36 _) as [|id [|ver [|par [|salt [|hash [|x6 rest]]]]]]; try (left; reflexivity).
  destruct (negb (str_eqb id s_argon2id)); [left; reflexivity|].
  destruct (negb (has_prefix [118; 61] ver)); [left; reflexivity|].
  destruct (atoi (skipn 2 ver)); [|left; reflexivity].
  destruct (nilb par); [left; reflexivity|].
  destruct (parse_params _ _) as [pr|]; [|left; reflexivity].
  destruct ((pm pr =? 0) || (pt pr =? 0) || (pp pr =? 0)); [left; reflexivity|].
  (* k is read off the goal: what remains of the function once the salt is decoded *)
  right. exists salt. eexists. split; [|intros dec; reflexivity].
  intros sb. cbn beta.
  destruct (negb (zlen sb =? 16)); [discriminate|].
  destruct (b64_decode_string hash) as [hb| |] eqn:Eh;
    [|discriminate|destruct (b64_decode_string_no_panic _ Eh)].
  destruct (nilb hb); [discriminate|].
  destruct (negb (pl pr =? 0) && negb (pl pr =? zlen hb)); discriminate.
Qed.

Lemma phc_parse_with_no_panic : forall dec,
  (forall s, dec s <> Panic) -> forall s, phc_parse_with dec s <> Panic.
Proof.
  intros dec Hdec s.
  destruct (phc_parse_with_shape s) as [E|(salt & k & Hk & E)]; rewrite E; [discriminate|].
  specialize (Hdec salt). destruct (dec salt); [apply Hk|discriminate|destruct Hdec; reflexivity].
Qed.

(* No stored password-hash string makes the parser panic. *)
Theorem phc_parse_total : forall s, phc_parse s <> Panic.
Proof.
  unfold phc_parse. apply phc_parse_with_no_panic. exact b64_decode_string_no_panic.
Qed.

(* The shape the code had before the repair (decode into a [16]byte array) does panic:
   "$argon2id$v=19$m=8,t=1,p=1$" ++ 24 x 'A' ++ "$AAAA" (a salt of 18 bytes). *)
Definition long_salt_witness : str :=
  [36;97;114;103;111;110;50;105;100;36;118;61;49;57;36;109;61;56;44;116;61;49;44;112;61;49;36;
   65;65;65;65;65;65;65;65;65;65;65;65;65;65;65;65;65;65;65;65;65;65;65;65;36;65;65;65;65].

Lemma phc_parse_fixed16_refuted : exists s, phc_parse_fixed16 s = Panic.
Proof. exists long_salt_witness. vm_compute. reflexivity. Qed.

(* ... and exactly because of the buffer: with the fixed array the salt decoder is the only difference *)
Lemma phc_parse_fixed16_agrees : forall s,
  phc_parse_fixed16 s <> Panic -> phc_parse_fixed16 s = phc_parse s.
Proof.
  intros s. unfold phc_parse_fixed16, phc_parse.
  destruct (phc_parse_with_shape s) as [E|(salt & k & _ & E)]; rewrite !E; [reflexivity|].
  intros Hnp. f_equal. apply b64_go_cap; [|apply b64_decode_string_no_panic].
  intros E16. apply Hnp. unfold b64_decode_into. rewrite E16. reflexivity.
Qed.
