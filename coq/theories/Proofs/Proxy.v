(* Proofs about Model/Proxy.v: one request (all origin answers, all cache faults) and
   whole histories (induction over the step list).

   C06  - client conditionals never influence anything the proxy sends upstream or keeps;
          a stale entry is revalidated with exactly its saved validators, which are those
          of the 200 answer it was stored from; a 304 renews by the configured default and
          changes nothing else; a storable 200 replaces the entry, after which only bodies
          the origin handed out from then on are ever served; any other answer is relayed
          and leaves the store alone.
   C09  - if every upstream request of a step was answered with 2xx / 304, the client gets
          one of those answers or a 200 built from a body the origin handed out in a 200
          answer - never the proxy's own 502 - whatever the cache does underneath. *)
From Reservoir Require Import Base.Prelude Base.Strings Base.History Model.Freshness Model.Proxy.

Lemma get_set k n v h : get_field k (set_field n v h) = if k =? n then Some [v] else get_field k h.
Proof.
  induction h as [|[m vs] r IH]; simpl; [reflexivity|].
  destruct (n <? m); [reflexivity|]. destruct (n =? m) eqn:E; simpl.
  - apply Z.eqb_eq in E. subst m. destruct (k =? n); reflexivity.
  - rewrite IH. destruct (k =? m) eqn:Em; [|reflexivity].
    apply Z.eqb_eq in Em. subst m. rewrite Z.eqb_sym, E. reflexivity.
Qed.

Lemma get_strip k h : get_field k (strip_regular h) = if is_regular k then None else get_field k h.
Proof.
  induction h as [|[m vs] r IH]; simpl; [destruct (is_regular k); reflexivity|].
  destruct (k =? m) eqn:E.
  - apply Z.eqb_eq in E. subst m. destruct (is_regular k); simpl; [exact IH|]. rewrite Z.eqb_refl. reflexivity.
  - destruct (is_regular m); simpl; rewrite ?E; exact IH.
Qed.

Lemma get_set_validators k e h :
  get_field k (set_validators e h) =
  if k =? IF_MODIFIED_SINCE then Some [CDate (e_lm e)]
  else match e_etag e with
       | [] => get_field k h
       | t => if k =? IF_NONE_MATCH then Some [CRaw t] else get_field k h
       end.
Proof. unfold set_validators. rewrite get_set. destruct (e_etag e); [|rewrite get_set]; reflexivity. Qed.

Definition no_conditionals (h : cmap) : Prop :=
  forall n, is_regular n = true -> get_field n h = None.

Definition carries_validators (e : entry) (h : cmap) : Prop :=
  get_field IF_NONE_MATCH h = match e_etag e with [] => None | t => Some [CRaw t] end /\
  get_field IF_MODIFIED_SINCE h = Some [CDate (e_lm e)] /\
  get_field IF_MATCH h = None /\
  get_field IF_UNMODIFIED_SINCE h = None.

Lemma strip_no_conditionals h : no_conditionals (strip_regular h).
Proof. intros n Hn. rewrite get_strip, Hn. reflexivity. Qed.

Lemma set_validators_carries e h : no_conditionals h -> carries_validators e (set_validators e h).
Proof.
  intros Hh. unfold carries_validators. rewrite !get_set_validators. simpl.
  rewrite !Hh by reflexivity. destruct (e_etag e); auto.
Qed.

Lemma set_validators_other k e h : is_regular k = false -> get_field k (set_validators e h) = get_field k h.
Proof.
  intros Hk. rewrite get_set_validators.
  destruct (k =? IF_MODIFIED_SINCE) eqn:E1; [apply Z.eqb_eq in E1; subst k; discriminate|].
  destruct (k =? IF_NONE_MATCH) eqn:E0; [apply Z.eqb_eq in E0; subst k; discriminate|].
  destruct (e_etag e); reflexivity.
Qed.

Lemma step_ignores_client_conditionals cfg now st rq rq' answers flt :
  rq_meth rq = rq_meth rq' ->
  strip_regular (rq_hdr rq) = strip_regular (rq_hdr rq') ->
  proxy_step cfg now st rq answers flt = proxy_step cfg now st rq' answers flt.
Proof. intros Hm Hh. unfold proxy_step. rewrite Hm, Hh. reflexivity. Qed.

Definition is_answer (r : oresult) : bool := match r with OAnswer _ => true | OFail => false end.

(* every upstream request of the step got an answer from the origin *)
Definition all_answered (ups : list upreq) (answers : list oresult) : Prop :=
  (length ups <= length answers)%nat /\ forallb is_answer (firstn (length ups) answers) = true.

(* what a step leaves in the store, one disjunct each: nothing; what was there; that entry with
   its lifetime renewed (after a 304); a new entry made from a 200 among the answers consumed *)
Definition entry_shape (cfg : pconfig) (now : Z) (st : option entry) (cons : list oresult) (st' : option entry) : Prop :=
  st' = None \/ st' = st
  \/ (exists e0, st = Some e0 /\ st' = Some (renew e0 (now + default_age (pc_pol cfg))))
  \/ (exists a, In (OAnswer a) cons /\ oa_status a = 200 /\ st' = Some (new_entry (pc_pol cfg) now a)).

(* where the response comes from.  A stored entry served as a hit is the one that was there,
   untouched, and the origin was not asked; served under any other label it is the entry the step
   leaves, and the origin was asked.  A relayed answer is one of those consumed.  A 502 means some
   upstream request went unanswered. *)
Definition resp_shape (st st' : option entry) (ups : list upreq) (answers : list oresult) (resp : response) : Prop :=
  match resp with
  | RStored hs us e =>
      (hs = HsHit /\ st = Some e /\ st' = st /\ ups = []) \/ (hs <> HsHit /\ st' = Some e /\ ups <> [])
  | RRelay a => In (OAnswer a) (firstn (length ups) answers)
  | RBadGateway => ~ all_answered ups answers
  end.

Ltac inv_pair :=
  repeat match goal with
  | H : (_, _) = (_, _) |- _ => inversion H; subst; clear H
  end.

Lemma is_get_GET m : is_get m = true -> m = GET.
Proof. destruct m; simpl; congruence. Qed.

Lemma handle_store_shape cfg now m st a flt st' r cons :
  handle_store cfg now m st a flt = (st', r) -> In (OAnswer a) cons ->
  entry_shape cfg now st cons st' /\
  match r with
  | FCached e _ => st' = Some e /\ (is_get m = true \/ st <> None)
  | FDirect a' => In (OAnswer a') cons /\ st' = st
  | FNotCacheable => True
  | FFail => False
  end.
Proof.
  unfold handle_store, entry_shape, storable. intros H Hin.
  destruct (oa_status a =? 200) eqn:E200.
  - destruct (is_get m); rewrite ?andb_false_r in H; [|inv_pair; auto].
    destruct (_ && _); [destruct (f_store_fail flt)|]; inv_pair; auto.
    (* left: the answer is stored, the entry is made from [a] *)
    split; [|auto]. right. right. right. exists a. apply Z.eqb_eq in E200. auto.
  - destruct (oa_status a =? 304); [|inv_pair; auto].
    destruct st as [e|]; [|inv_pair; auto].
    (* a 304 for the entry [e]: it is renewed, then read again *)
    destruct (f_reget flt); inv_pair.
    + (* and served *) split; [eauto 6|]. split; [reflexivity|right; discriminate].
    + (* gone by then *) auto.
    + (* unreadable: it stays, and is not served *) split; [eauto 6|exact I].
Qed.

(* the shape relative to the entry as it is once the first upstream exchange is over *)
Definition vshape (cfg : pconfig) (now : Z) (st : option entry) (flt : faults) (cons : list oresult) (st' : option entry) : Prop :=
  entry_shape cfg now (vanished flt st) cons st'.

Lemma vanished_shape cfg now st flt cons : entry_shape cfg now st cons (vanished flt st).
Proof. unfold entry_shape, vanished. destruct (f_vanish flt); auto. Qed.

Lemma vshape_entry_shape cfg now st flt cons st' :
  vshape cfg now st flt cons st' -> entry_shape cfg now st cons st'.
Proof.
  unfold vshape, entry_shape, vanished. destruct (f_vanish flt); [|tauto].
  intros [H|[H|[(e0 & H & _)|H]]]; try discriminate; auto.
Qed.

Lemma fetch_upstream_shape cfg now m st u answers flt st' r rest ups :
  fetch_upstream cfg now m st u answers flt = (st', r, rest, ups) ->
  (ups = [u] \/ ups = [u; u]) /\ rest = skipn (length ups) answers /\
  vshape cfg now st flt (firstn (length ups) answers) st' /\
  match r with
  | FCached e _ => st' = Some e /\ (is_get m = true \/ vanished flt st <> None)
  | FDirect a => In (OAnswer a) (firstn (length ups) answers) /\ st' = vanished flt st
  | FNotCacheable => True
  | FFail => ~ all_answered ups answers
  end.
Proof.
  unfold fetch_upstream, handle, all_answered, vshape, entry_shape. intros H.
  destruct answers as [|[a|] rest0].
  - inv_pair. simpl. intuition lia.
  - destruct ((oa_status a =? 416) && pc_retry416 cfg).
    + destruct rest0 as [|[a2|] rest2].
      * inv_pair. simpl. intuition lia.
      * destruct (handle_store _ _ _ _ a2 _) as [st2 r2] eqn:Eh. inv_pair.
        apply (handle_store_shape _ _ _ _ _ _ _ _ [OAnswer a; OAnswer a2]) in Eh as [Hs Hr]; [|simpl; auto].
        repeat split; auto. destruct r; tauto.
      * inv_pair. simpl. intuition discriminate.
    + destruct (handle_store _ _ _ _ a _) as [st2 r2] eqn:Eh. inv_pair.
      apply (handle_store_shape _ _ _ _ _ _ _ _ [OAnswer a]) in Eh as [Hs Hr]; [|simpl; auto].
      repeat split; auto. destruct r; tauto.
  - inv_pair. simpl. intuition discriminate.
Qed.

Lemma firstn_length_snoc ups (u : upreq) (answers : list oresult) :
  firstn (length (ups ++ [u])) answers
  = firstn (length ups) answers ++ firstn 1 (skipn (length ups) answers).
Proof. rewrite app_length. apply firstn_add. Qed.

Lemma all_answered_snoc ups u answers a r :
  all_answered ups answers -> skipn (length ups) answers = OAnswer a :: r ->
  all_answered (ups ++ [u]) answers.
Proof.
  intros [Hl Hf] Hs. unfold all_answered. rewrite firstn_length_snoc, Hs, forallb_app, Hf.
  split; [|reflexivity]. apply (f_equal (@length _)) in Hs.
  rewrite skipn_length in Hs. rewrite app_length. simpl in *. lia.
Qed.

Lemma all_answered_prefix ups ups2 answers :
  all_answered (ups ++ ups2) answers -> all_answered ups answers.
Proof.
  intros [Hl Hf]. rewrite app_length in *. rewrite firstn_add, forallb_app in Hf.
  apply andb_true_iff in Hf as [Hf _]. split; [lia|exact Hf].
Qed.

Lemma entry_shape_mono cfg now st c1 c2 st' :
  incl c1 c2 -> entry_shape cfg now st c1 st' -> entry_shape cfg now st c2 st'.
Proof.
  intros Hsub [H|[H|[H|(a & Hin & H2)]]]; unfold entry_shape; auto.
  right. right. right. exists a. auto.
Qed.

Lemma direct_fetch_ups u answers : direct_fetch u answers = (fst (direct_fetch u answers), [u]).
Proof. unfold direct_fetch. destruct answers as [|[a|] r]; reflexivity. Qed.

Lemma direct_after cfg now st st' ups plain answers :
  entry_shape cfg now st (firstn (length ups) answers) st' ->
  entry_shape cfg now st (firstn (length (ups ++ [plain])) answers) st'
  /\ resp_shape st st' (ups ++ [plain]) answers (fst (direct_fetch plain (skipn (length ups) answers))).
Proof.
  unfold direct_fetch. intros Hs.
  apply (entry_shape_mono _ _ _ _ (firstn (length (ups ++ [plain])) answers)) in Hs;
    [|rewrite firstn_length_snoc; apply incl_appl, incl_refl].
  split; [exact Hs|]. destruct (skipn _ _) as [|[a|] r] eqn:E; simpl.
  - intros [Hl _]. apply (f_equal (@length _)) in E. rewrite skipn_length in E.
    rewrite app_length in Hl. simpl in *. lia.
  - rewrite firstn_length_snoc, E. apply in_or_app. simpl. auto.
  - intros [_ Hf]. rewrite firstn_length_snoc, E, forallb_app, andb_false_r in Hf. discriminate.
Qed.

Lemma finish_get_shape cfg now st u plain hs answers flt st' resp ups :
  hs <> HsHit ->
  finish_get plain hs (fetch_upstream cfg now GET st u answers flt) = (st', resp, ups) ->
  entry_shape cfg now st (firstn (length ups) answers) st'
  /\ resp_shape st st' ups answers resp
  /\ (exists t, ups = u :: t) /\ Forall (fun x => x = u \/ x = plain) ups.
Proof.
  intros Hhs. unfold finish_get.
  destruct (fetch_upstream cfg now GET st u answers flt) as [[[st1 r] rest] ups1] eqn:Ef.
  apply fetch_upstream_shape in Ef as (Hups & -> & Hs & Hr). apply vshape_entry_shape in Hs.
  assert (Hu : (exists t, ups1 = u :: t) /\ Forall (fun x => x = u \/ x = plain) ups1)
    by (destruct Hups as [-> | ->]; eauto 7).
  destruct r as [e us|a| |].
  1: { intros H. inv_pair. split; [exact Hs|]. split; [|exact Hu].
       right. destruct Hu as [[t ->] _]. split; [exact Hhs|]. split; [apply Hr|discriminate]. }
  3: { intros H. inv_pair. split; [exact Hs|]. split; [exact Hr|exact Hu]. }
  (* FDirect and FNotCacheable alike: the answer at hand is dropped, the client's own request sent *)
  all: rewrite direct_fetch_ups; intros H; inv_pair; destruct Hu as [[t ->] Hall].
  all: apply (direct_after _ _ _ _ _ plain) in Hs as (Hs & Hresp).
  all: split; [exact Hs|split; [exact Hresp|]].
  all: split; [simpl; eauto|apply Forall_app; auto].
Qed.

(* under the key of another method nothing is ever stored or found *)
Lemma other_never_cached cfg now m u answers flt st' r rest ups :
  is_get m = false -> fetch_upstream cfg now m None u answers flt = (st', r, rest, ups) ->
  forall e us, r <> FCached e us.
Proof.
  intros Hm H e us ->. apply fetch_upstream_shape in H as (_ & _ & _ & _ & [Hg|Hst]); [congruence|].
  apply Hst. unfold vanished. destruct (f_vanish flt); reflexivity.
Qed.

Lemma other_step_shape cfg now m st h answers flt st' resp ups :
  is_get m = false ->
  other_step cfg now m st h answers flt = (st', resp, ups) ->
  entry_shape cfg now st (firstn (length ups) answers) st'
  /\ resp_shape st st' ups answers resp
  /\ Forall (eq {| u_meth := m; u_hdr := h |}) ups.
Proof.
  intros Eg. unfold other_step.
  destruct (fetch_upstream cfg now m None _ answers flt) as [[[st1 r] rest] ups1] eqn:Ef.
  pose proof (other_never_cached _ _ _ _ _ _ _ _ _ _ Eg Ef) as Hnc.
  pose proof (vanished_shape cfg now st flt) as Hv.
  apply fetch_upstream_shape in Ef as (Hups & -> & _ & Hr).
  assert (Hall : Forall (eq {| u_meth := m; u_hdr := h |}) ups1)
    by (destruct Hups as [-> | ->]; repeat constructor).
  destruct r as [e us|a| |]; intros H.
  - destruct (Hnc e us eq_refl).
  - inv_pair. split; [apply Hv|]. split; [apply Hr|exact Hall].
  - rewrite direct_fetch_ups in H. inv_pair.
    destruct (direct_after cfg now st _ ups1 {| u_meth := m; u_hdr := h |} answers (Hv _)) as (Hs & Hresp).
    split; [exact Hs|]. split; [exact Hresp|apply Forall_app; auto].
  - inv_pair. split; [apply Hv|]. split; [exact Hr|exact Hall].
Qed.

Lemma proxy_step_shape cfg now st rq answers flt st' resp ups :
  proxy_step cfg now st rq answers flt = (st', resp, ups) ->
  entry_shape cfg now st (firstn (length ups) answers) st'
  /\ resp_shape st st' ups answers resp.
Proof.
  unfold proxy_step. destruct (is_get (rq_meth rq)) eqn:Eg.
  - unfold get_step. intros H.
    destruct st as [e|]; [destruct (f_lookup_err flt); [|destruct (fresh e now)]|].
    + rewrite direct_fetch_ups in H. inv_pair.
      apply (direct_after cfg now (Some e) (vanished flt (Some e)) []), vanished_shape.
    + inv_pair. split; [right; left; reflexivity|left; auto].
    + apply finish_get_shape in H; [tauto|discriminate].
    + apply finish_get_shape in H; [tauto|discriminate].
  - intros H. apply other_step_shape in H; [tauto|exact Eg].
Qed.

Definition revalidates (st : option entry) (rq : request) (flt : faults) (now : Z) (e : entry) : Prop :=
  st = Some e /\ is_get (rq_meth rq) = true /\ f_lookup_err flt = false /\ fresh e now = false.

Lemma proxy_step_ups cfg now st rq answers flt st' resp ups :
  proxy_step cfg now st rq answers flt = (st', resp, ups) ->
  Forall (fun u => u_meth u = rq_meth rq /\
                   (u_hdr u = strip_regular (rq_hdr rq)
                    \/ exists e, revalidates st rq flt now e /\ u_hdr u = set_validators e (strip_regular (rq_hdr rq)))) ups
  /\ (forall e, revalidates st rq flt now e ->
        exists t, ups = {| u_meth := GET; u_hdr := set_validators e (strip_regular (rq_hdr rq)) |} :: t).
Proof.
  unfold proxy_step, revalidates. destruct (is_get (rq_meth rq)) eqn:Eg.
  - apply is_get_GET in Eg. rewrite Eg. unfold get_step.
    destruct st as [e|]; [destruct (f_lookup_err flt); [|destruct (fresh e now) eqn:Ef]|]; intros H.
    + rewrite direct_fetch_ups in H. inv_pair.
      split; [repeat constructor; auto|]. intros e0 (_ & _ & Hc & _). discriminate.
    + inv_pair. split; [constructor|]. intros e0 (He & _ & _ & Hc). congruence.
    + apply finish_get_shape in H as (_ & _ & [t ->] & Hall); [|discriminate]. split.
      * eapply Forall_impl; [|exact Hall]. intros x [->| ->]; simpl; eauto 8.
      * intros e0 (He & _). inversion He. eauto.
    + apply finish_get_shape in H as (_ & _ & _ & Hall); [|discriminate]. split.
      * eapply Forall_impl; [|exact Hall]. intros x [->| ->]; simpl; auto.
      * intros e0 (He & _). discriminate.
  - intros H. apply other_step_shape in H as (_ & _ & Hall); [|exact Eg]. split.
    + eapply Forall_impl; [|exact Hall]. intros x <-. simpl. auto.
    + intros e (_ & Hc & _). discriminate.
Qed.

Lemma history_induction (P : hstate -> list event -> Prop) (Q : list event -> event -> Prop) :
  (forall s past x, P s past ->
     match step s x with
     | (s', None) => P s' past
     | (s', Some ev) => Q past ev /\ P s' (past ++ [ev])
     end) ->
  forall h s past, P s past ->
  forall evs1 ev evs2, events s h = evs1 ++ ev :: evs2 -> Q (past ++ evs1) ev.
Proof. exact (trace_ind step P Q). Qed.

Definition answers_in (l : list oresult) : list oanswer :=
  flat_map (fun r => match r with OAnswer a => [a] | OFail => [] end) l.

Definition issued (evs : list event) : list oanswer := flat_map (fun ev => answers_in (consumed ev)) evs.

Lemma answers_in_spec a l : In a (answers_in l) <-> In (OAnswer a) l.
Proof.
  unfold answers_in. rewrite in_flat_map. split.
  - intros ([b|] & Hin & Hx); simpl in Hx; [|contradiction]. destruct Hx as [->|[]]. exact Hin.
  - intros Hin. exists (OAnswer a). simpl. auto.
Qed.

Lemma issued_app a b : issued (a ++ b) = issued a ++ issued b.
Proof. apply flat_map_app. Qed.

Lemma issued_snoc past ev a : In (OAnswer a) (consumed ev) -> In a (issued (past ++ [ev])).
Proof.
  intros H. rewrite issued_app. apply in_or_app. right. simpl. rewrite app_nil_r.
  apply answers_in_spec. exact H.
Qed.

Definition from_answer (a : oanswer) (e : entry) : Prop :=
  oa_status a = 200 /\ e_version e = oa_version a /\ e_etag e = oa_etag a /\
  e_lm e = match oa_lm a with Some t => t | None => e_stored_at e end.

Definition prov (past : list event) (e : entry) : Prop :=
  exists a, In a (issued past) /\ from_answer a e.

Definition is_step (ev : event) : Prop :=
  proxy_step (ev_cfg ev) (ev_now ev) (ev_before ev) (ev_rq ev) (ev_answers ev) (ev_flt ev)
  = (ev_after ev, ev_resp ev, ev_ups ev).

Section EntryInvariant.
  Variable R : list event -> entry -> Prop.
  Hypothesis R_mono : forall past more e, R past e -> R (past ++ more) e.
  Hypothesis R_renew : forall past e exp, R past e -> R past (renew e exp).
  Hypothesis R_new : forall past pol now a,
    In a (issued past) -> oa_status a = 200 -> R past (new_entry pol now a).

  Definition entry_inv (past : list event) (st : option entry) : Prop :=
    forall e, st = Some e -> R past e.

  Definition event_ok (past : list event) (ev : event) : Prop :=
    is_step ev /\ entry_inv past (ev_before ev) /\
    forall hs us e, ev_resp ev = RStored hs us e -> R (past ++ [ev]) e.

  Lemma step_entry_inv s past x :
    entry_inv past (hs_entry s) ->
    match step s x with
    | (s', None) => entry_inv past (hs_entry s')
    | (s', Some ev) => event_ok past ev /\ entry_inv (past ++ [ev]) (hs_entry s')
    end.
  Proof.
    intros Hinv. destruct x as [d|c| |rq answers flt]; simpl; try exact Hinv.
    - intros e He. discriminate.
    - destruct (proxy_step _ _ _ rq answers flt) as [[st' resp] ups] eqn:Ep.
      destruct (proxy_step_shape _ _ _ _ _ _ _ _ _ Ep) as [Hs Hr].
      set (ev := {| ev_resp := resp |}).
      assert (Hafter : entry_inv (past ++ [ev]) st').
      { destruct Hs as [->|[->|[(e0 & H0 & ->)|(a & Hin & H200 & ->)]]]; intros e He; inversion He; subst.
        - apply R_mono, Hinv. exact He.
        - apply R_mono, R_renew, Hinv. exact H0.
        - apply R_new; [apply issued_snoc; exact Hin|exact H200]. }
      split; [|exact Hafter]. split; [exact Ep|]. split; [exact Hinv|].
      simpl. intros hs us e ->. destruct Hr as [(_ & He & _)|(_ & He & _)].
      + apply R_mono, Hinv. exact He.
      + apply Hafter. exact He.
  Qed.

  Lemma history_entries s past h evs1 ev evs2 :
    entry_inv past (hs_entry s) -> events s h = evs1 ++ ev :: evs2 -> event_ok (past ++ evs1) ev.
  Proof.
    intros Hinv. exact (history_induction (fun s past => entry_inv past (hs_entry s)) event_ok
                          step_entry_inv h s past Hinv evs1 ev evs2).
  Qed.
End EntryInvariant.

Lemma prov_mono past more e : prov past e -> prov (past ++ more) e.
Proof. intros (a & Hin & Hf). exists a. rewrite issued_app. auto using in_or_app. Qed.

Lemma prov_renew past e exp : prov past e -> prov past (renew e exp).
Proof. intros (a & Hin & Hf). exists a. split; [exact Hin|exact Hf]. Qed.

Lemma prov_new past pol now a : In a (issued past) -> oa_status a = 200 -> prov past (new_entry pol now a).
Proof.
  intros Hin H200. exists a. split; [exact Hin|]. unfold from_answer. simpl. destruct (oa_lm a); auto.
Qed.

(* the stored entry always comes from a 200 answer the origin gave earlier in the history *)
Lemma prov_history cfg0 now0 h evs1 ev evs2 :
  events (init_state cfg0 now0) h = evs1 ++ ev :: evs2 -> event_ok prov evs1 ev.
Proof.
  apply (history_entries prov prov_mono prov_renew prov_new _ []). intros e He. discriminate.
Qed.

(* every upstream request of the event was answered by the origin, with 2xx or 304 *)
Definition origin_good (ev : event) : Prop :=
  (length (ev_ups ev) <= length (ev_answers ev))%nat /\ forallb good_result (consumed ev) = true.

Lemma good_is_answer l : forallb good_result l = true -> forallb is_answer l = true.
Proof.
  induction l as [|[a|] l IH]; simpl; intros H; try reflexivity; try discriminate.
  apply andb_true_iff in H as [_ H]. auto.
Qed.

Lemma no_manufactured_error cfg0 now0 h evs1 ev evs2 :
  events (init_state cfg0 now0) h = evs1 ++ ev :: evs2 -> origin_good ev ->
  match ev_resp ev with
  | RRelay a => In (OAnswer a) (consumed ev)
  | RStored _ _ e => prov (evs1 ++ [ev]) e
  | RBadGateway => False
  end.
Proof.
  intros Hev [Hl Hg]. destruct (prov_history _ _ _ _ _ _ Hev) as (Hstep & _ & Hserved).
  apply proxy_step_shape in Hstep as [_ Hr].
  destruct (ev_resp ev) as [hs us e|a|]; simpl in Hr.
  - eapply Hserved. reflexivity.
  - exact Hr.
  - apply Hr. split; [exact Hl|apply good_is_answer; exact Hg].
Qed.

Lemma good_status cfg0 now0 h evs1 ev evs2 :
  events (init_state cfg0 now0) h = evs1 ++ ev :: evs2 -> origin_good ev ->
  is_2xx (status_of (ev_resp ev)) || (status_of (ev_resp ev) =? 304) = true.
Proof.
  intros Hev Hg. pose proof (no_manufactured_error _ _ _ _ _ _ Hev Hg) as H.
  destruct (ev_resp ev) as [hs us e|a|]; simpl in *; [reflexivity| |contradiction].
  destruct Hg as [_ Hg]. rewrite forallb_forall in Hg. apply (Hg _ H).
Qed.

Lemma validators_history cfg0 now0 h evs1 ev evs2 :
  events (init_state cfg0 now0) h = evs1 ++ ev :: evs2 ->
  Forall (fun u =>
            no_conditionals (u_hdr u)
            \/ exists e, revalidates (ev_before ev) (ev_rq ev) (ev_flt ev) (ev_now ev) e
                         /\ carries_validators e (u_hdr u) /\ prov evs1 e) (ev_ups ev)
  /\ (forall e, revalidates (ev_before ev) (ev_rq ev) (ev_flt ev) (ev_now ev) e ->
        exists u t, ev_ups ev = u :: t /\ carries_validators e (u_hdr u))
  /\ Forall (fun u => forall k, is_regular k = false -> get_field k (u_hdr u) = get_field k (rq_hdr (ev_rq ev))) (ev_ups ev).
Proof.
  intros Hev. destruct (prov_history _ _ _ _ _ _ Hev) as (Hstep & Hbefore & _).
  apply proxy_step_ups in Hstep as [Hall Hfirst].
  pose proof (fun e => set_validators_carries e _ (strip_no_conditionals (rq_hdr (ev_rq ev)))) as Hcarries.
  split; [|split].
  - eapply Forall_impl; [|exact Hall]. intros u [_ [Hu|(e & Hrev & Hu)]]; rewrite Hu.
    + left. apply strip_no_conditionals.
    + right. exists e. split; [exact Hrev|]. split; [apply Hcarries|apply Hbefore, Hrev].
  - intros e Hrev. destruct (Hfirst e Hrev) as [t ->]. eexists. eexists. split; [reflexivity|apply Hcarries].
  - eapply Forall_impl; [|exact Hall]. intros u [_ [Hu|(e & _ & Hu)]] k Hk;
      rewrite Hu, ?set_validators_other, get_strip, Hk by exact Hk; reflexivity.
Qed.

Lemma revalidation_304 cfg now e rq a rest flt :
  revalidates (Some e) rq flt now e ->
  f_vanish flt = false -> f_reget flt = RgOk ->
  oa_status a = 304 ->
  let e' := renew e (now + default_age (pc_pol cfg)) in
  proxy_step cfg now (Some e) rq (OAnswer a :: rest) flt =
  (Some e', RStored HsRevalidated 304 e',
   [{| u_meth := GET; u_hdr := set_validators e (strip_regular (rq_hdr rq)) |}]).
Proof.
  intros (_ & Hg & Hl & Hf) Hv Hr Hs. unfold proxy_step, get_step, fetch_upstream, handle, handle_store, finish_get, vanished.
  rewrite Hg, Hl, Hf, Hv, Hr, Hs. simpl. reflexivity.
Qed.

Lemma renewed_lifetime e now dflt d :
  fresh (renew e (now + dflt)) (now + d) = true <-> d <= dflt.
Proof. unfold fresh, renew. simpl. rewrite negb_true_iff, Z.ltb_ge. lia. Qed.

Lemma fresh_entry_hit cfg now e' rq answers flt :
  is_get (rq_meth rq) = true -> f_lookup_err flt = false -> fresh e' now = true ->
  proxy_step cfg now (Some e') rq answers flt = (Some e', RStored HsHit 0 e', []).
Proof.
  intros Hg Hl Hf. unfold proxy_step, get_step. rewrite Hg, Hl, Hf. reflexivity.
Qed.

Lemma revalidation_200 cfg now st rq a rest flt :
  is_get (rq_meth rq) = true ->
  (match st with Some e => f_lookup_err flt = false /\ fresh e now = false | None => True end) ->
  oa_status a = 200 -> storable (pc_pol cfg) GET 200 (oa_hv a) now = true -> f_store_fail flt = false ->
  let e' := new_entry (pc_pol cfg) now a in
  exists u, proxy_step cfg now st rq (OAnswer a :: rest) flt =
            (Some e', RStored (match st with Some _ => HsRevalidated | None => HsMiss end) 200 e', [u]).
Proof.
  intros Hg Hst Hs Hsto Hsf. unfold proxy_step, get_step, fetch_upstream, handle, handle_store, finish_get.
  rewrite Hg. destruct st as [e|].
  - destruct Hst as [Hl Hf]. rewrite Hl, Hf, Hs. simpl. rewrite Hsto, Hsf. simpl. eauto.
  - rewrite Hs. simpl. rewrite Hsto, Hsf. simpl. eauto.
Qed.

(* an answer to a revalidation that is relayed as it is: neither a 304, nor a 416 the proxy would
   retry, nor a 200 it would store *)
Definition other_answer (cfg : pconfig) (now : Z) (a : oanswer) : Prop :=
  oa_status a <> 304 /\ (oa_status a = 416 -> pc_retry416 cfg = false) /\
  (oa_status a = 200 -> storable (pc_pol cfg) GET 200 (oa_hv a) now = false).

Lemma revalidation_other cfg now e rq a rest flt :
  revalidates (Some e) rq flt now e ->
  other_answer cfg now a ->
  proxy_step cfg now (Some e) rq (OAnswer a :: rest) flt =
  (vanished flt (Some e),
   match rest with OAnswer a2 :: _ => RRelay a2 | _ => RBadGateway end,
   [{| u_meth := GET; u_hdr := set_validators e (strip_regular (rq_hdr rq)) |};
    {| u_meth := GET; u_hdr := strip_regular (rq_hdr rq) |}]).
Proof.
  intros (_ & Hg & Hl & Hf) (H304 & H416 & H200).
  unfold proxy_step, get_step, fetch_upstream, handle, handle_store, finish_get.
  rewrite Hg, Hl, Hf.
  assert (E416 : (oa_status a =? 416) && pc_retry416 cfg = false).
  { destruct (oa_status a =? 416) eqn:E; [|reflexivity]. apply Z.eqb_eq in E. rewrite (H416 E). reflexivity. }
  rewrite E416.
  destruct (oa_status a =? 200) eqn:E200.
  - apply Z.eqb_eq in E200. rewrite (H200 E200). simpl. destruct rest as [|[a2|] r]; reflexivity.
  - assert (E304 : (oa_status a =? 304) = false) by (apply Z.eqb_neq; exact H304).
    rewrite E304. simpl. destruct rest as [|[a2|] r]; reflexivity.
Qed.

Definition versions200 (l : list oanswer) : list Z :=
  map oa_version (filter (fun a => oa_status a =? 200) l).

Lemma versions200_app a b : versions200 (a ++ b) = versions200 a ++ versions200 b.
Proof. unfold versions200. rewrite filter_app, map_app. reflexivity. Qed.

Definition ver_ok (v0 : Z) (past : list event) (ev : event) : Prop :=
  forall hs us e, ev_resp ev = RStored hs us e -> In (e_version e) (v0 :: versions200 (issued (past ++ [ev]))).

Lemma served_versions v0 s h evs1 ev evs2 :
  (forall e, hs_entry s = Some e -> e_version e = v0) ->
  events s h = evs1 ++ ev :: evs2 -> ver_ok v0 evs1 ev.
Proof.
  intros H0 Hev.
  apply (history_entries (fun past e => In (e_version e) (v0 :: versions200 (issued past)))) with (past := []) in Hev.
  - destruct Hev as (_ & _ & Hev). exact Hev.
  - intros past more e [->|H]; [left; reflexivity|right].
    rewrite issued_app, versions200_app. apply in_or_app. auto.
  - intros past e exp H. exact H.
  - intros past pol now a Hin H200. right. apply (in_map oa_version), filter_In. split; [exact Hin|apply Z.eqb_eq, H200].
  - intros e He. left. symmetry. apply H0, He.
Qed.

Lemma replaced_never_served cfg now st rq a rest flt h evs1 ev evs2 :
  is_get (rq_meth rq) = true ->
  (match st with Some e => f_lookup_err flt = false /\ fresh e now = false | None => True end) ->
  oa_status a = 200 -> storable (pc_pol cfg) GET 200 (oa_hv a) now = true -> f_store_fail flt = false ->
  let s1 := fst (step {| hs_cfg := cfg; hs_now := now; hs_entry := st |} (Request rq (OAnswer a :: rest) flt)) in
  events s1 h = evs1 ++ ev :: evs2 ->
  forall hs us e, ev_resp ev = RStored hs us e ->
  In (e_version e) (oa_version a :: versions200 (issued (evs1 ++ [ev]))).
Proof.
  intros Hg Hst Hs Hsto Hsf s1 Hev.
  destruct (revalidation_200 cfg now st rq a rest flt Hg Hst Hs Hsto Hsf) as [u Hstep].
  assert (Hs1 : hs_entry s1 = Some (new_entry (pc_pol cfg) now a)).
  { unfold s1. simpl. rewrite Hstep. reflexivity. }
  eapply (served_versions (oa_version a) s1 h evs1 ev evs2); [|exact Hev].
  intros e He. rewrite Hs1 in He. inversion He. reflexivity.
Qed.
