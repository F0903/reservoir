(* Proofs about Model/Sync.v: the rank discipline gives deadlock freedom and
   completion for every interleaving; the skeleton checker is sound for every
   denotation and every shard map. *)
From Reservoir Require Import Base.Prelude Model.Sync.

Local Open Scope nat_scope.

Lemma forallb_false_ex {A} (f : A -> bool) l : forallb f l = false -> exists x, In x l /\ f x = false.
Proof.
  induction l as [|a r IH]; simpl; [discriminate|].
  destruct (f a) eqn:E; simpl; [|eauto].
  intros H. destruct (IH H) as [x [Hx Hf]]. eauto.
Qed.

(* The models write membership and removal out once per element type ([lmem], [smem], [hmem];
   [remove1], [hremove1]): their common properties, for any functions obeying the same equations. *)
Section MemRem.
  Context {A : Type} (eqb : A -> A -> bool) (mem : A -> list A -> bool) (rem : A -> list A -> list A).
  Hypothesis eqb_eq : forall a b, eqb a b = true <-> a = b.
  Hypothesis mem_nil : forall x, mem x [] = false.
  Hypothesis mem_cons : forall x y r, mem x (y :: r) = eqb x y || mem x r.
  Hypothesis rem_nil : forall x, rem x [] = [].
  Hypothesis rem_cons : forall x y r, rem x (y :: r) = if eqb x y then r else y :: rem x r.

  Lemma mem_spec x h : mem x h = true <-> In x h.
  Proof.
    induction h as [|y r IH]; [rewrite mem_nil; simpl; split; [discriminate|contradiction]|].
    rewrite mem_cons, orb_true_iff, IH, eqb_eq. simpl. split; intros [H|H]; auto.
  Qed.

  Lemma rem_incl a x h : In x (rem a h) -> In x h.
  Proof.
    induction h as [|y r IH]; [rewrite rem_nil; auto|].
    rewrite rem_cons. destruct (eqb a y); simpl; [auto|intros [H|H]; auto].
  Qed.

  Lemma rem_NoDup a h : NoDup h -> NoDup (rem a h).
  Proof.
    induction 1 as [|y r Hy Hr IH]; [rewrite rem_nil; constructor|].
    rewrite rem_cons. destruct (eqb a y); [exact Hr|].
    constructor; [|exact IH]. intros H. apply Hy, (rem_incl a), H.
  Qed.
End MemRem.

Lemma lock_eqb_eq a b : lock_eqb a b = true <-> a = b.
Proof. destruct a, b; simpl; rewrite ?Nat.eqb_eq; split; congruence. Qed.

Lemma lock_eqb_refl a : lock_eqb a a = true.
Proof. apply lock_eqb_eq. reflexivity. Qed.

Lemma lmem_In l h : lmem l h = true <-> In l h.
Proof. apply (mem_spec lock_eqb); auto using lock_eqb_eq. Qed.

Lemma remove1_In l x h : In x (remove1 l h) -> In x h.
Proof. apply (rem_incl lock_eqb); auto. Qed.

Lemma remove1_NoDup l h : NoDup h -> NoDup (remove1 l h).
Proof. apply (rem_NoDup lock_eqb); auto. Qed.

Lemma nth_error_upd {A} i j (x : A) l :
  nth_error (upd_nth i x l) j = if Nat.eqb i j then option_map (fun _ => x) (nth_error l j) else nth_error l j.
Proof.
  revert i j; induction l as [|y r IH]; intros [|i] [|j]; simpl; auto.
  destruct (i =? j); reflexivity.
Qed.

Lemma nth_upd_inv {A} i j (x y : A) l :
  nth_error (upd_nth i x l) j = Some y -> j = i /\ y = x \/ nth_error l j = Some y.
Proof.
  rewrite nth_error_upd. destruct (Nat.eqb_spec i j) as [->|]; auto.
  destruct (nth_error l j); simpl; intros [= <-]; auto.
Qed.

Lemma In_upd_nth {A} i (x y : A) l : In y (upd_nth i x l) -> y = x \/ In y l.
Proof.
  intros H. apply In_nth_error in H as [j H].
  apply nth_upd_inv in H as [[_ ->]|H]; eauto using nth_error_In.
Qed.

(* "No two positions of [l] hold elements related through some [w]" survives an update at [i], if
   whatever relates the new element to another one of [l] related the old element to it as well. *)
Lemma pairwise_upd {A W} (P Q : W -> A -> Prop) l i t t' :
  (forall a b x y w, nth_error l a = Some x -> nth_error l b = Some y -> P w x -> Q w y -> a = b) ->
  nth_error l i = Some t ->
  (forall u w, In u l -> Q w u -> P w t' -> P w t) ->
  (forall u w, In u l -> P w u -> Q w t' -> Q w t) ->
  forall a b x y w, nth_error (upd_nth i t' l) a = Some x -> nth_error (upd_nth i t' l) b = Some y ->
                    P w x -> Q w y -> a = b.
Proof.
  intros Hl Hi HP HQ a b x y w Ha Hb Hx Hy.
  apply nth_upd_inv in Ha as [[-> ->]|Ha]; apply nth_upd_inv in Hb as [[-> ->]|Hb];
    eauto using nth_error_In.
Qed.

Lemma is_free_spec s l : is_free s l = true <-> forall t, In t s -> ~ In l (held t).
Proof.
  unfold is_free. rewrite forallb_forall.
  setoid_rewrite negb_true_iff. setoid_rewrite <- not_true_iff_false. setoid_rewrite lmem_In.
  reflexivity.
Qed.

Lemma not_free_holder s l : is_free s l = false -> exists u, In u s /\ In l (held u).
Proof.
  intros H. apply forallb_false_ex in H as [u [Hu H]].
  apply negb_false_iff, lmem_In in H. eauto.
Qed.

Lemma sys_step_inv s i c s' : sys_step s i c = Some s' ->
  exists t t', nth_error s i = Some t /\ thread_step s t c = Some t' /\ s' = upd_nth i t' s.
Proof.
  unfold sys_step. destruct (nth_error s i) as [t|]; [|discriminate].
  destruct (thread_step s t c) as [t'|] eqn:E; intros [= <-]; eauto.
Qed.

Lemma thread_step_held s t c t' : thread_step s t c = Some t' ->
  held t' = held t \/ (exists l, is_free s l = true /\ held t' = l :: held t)
  \/ exists l, held t' = remove1 l (held t).
Proof.
  unfold thread_step.
  destruct (code t) as [|l k|l k|l a b|a b|k|k];
    [|destruct (is_free s l) eqn:E|destruct (lmem l (held t))|destruct (is_free s l) eqn:E| | |];
    intros [= <-]; simpl; eauto.
Qed.

Lemma thread_step_disc s t c t' :
  In t s -> disc (held t) (code t) -> thread_step s t c = Some t' -> disc (held t') (code t').
Proof.
  unfold thread_step. intros Hin.
  destruct (code t) as [|l k|l k|l a b|a b|k|k]; simpl; intros Hd.
  - discriminate.
  - destruct (is_free s l); intros [= <-]. apply Hd.
  - destruct (lmem l (held t)); intros [= <-]. apply Hd.
  - destruct (is_free s l) eqn:E; intros [= <-]; simpl; [|apply Hd].
    apply Hd, (is_free_spec s l); assumption.
  - intros [= <-]. simpl. destruct c; apply Hd.
  - intros [= <-]. apply Hd.
  - intros [= <-]. exact Hd.
Qed.

Definition excl (s : sys) : Prop :=
  (forall t, In t s -> NoDup (held t)) /\
  (forall i j ti tj l, nth_error s i = Some ti -> nth_error s j = Some tj ->
                        In l (held ti) -> In l (held tj) -> i = j).

Definition wf (s : sys) : Prop :=
  excl s /\ forall t, In t s -> disc (held t) (code t).

Lemma sys_step_wf s i c s' : wf s -> sys_step s i c = Some s' -> wf s'.
Proof.
  intros [[Hnd Hex] Hd] H. apply sys_step_inv in H as (t & t' & Hi & Hst & ->).
  assert (Hin := nth_error_In _ _ Hi).
  (* the stepping thread keeps its locks apart, and shares with another thread only what it already held *)
  assert (Hh : NoDup (held t') /\
               forall u l, In u s -> In l (held u) -> In l (held t') -> In l (held t)).
  { destruct (thread_step_held _ _ _ _ Hst) as [->|[(l & Hf & ->)|[l ->]]].
    - auto.
    - rewrite is_free_spec in Hf. split; [constructor; auto|].
      intros u l' Hu Hl' [<-|H]; [destruct (Hf u Hu Hl')|exact H].
    - split; [apply remove1_NoDup; auto|]. intros u l' _ _. apply remove1_In. }
  destruct Hh as [Hnd' Hshare]. split; [split|].
  - intros u Hu. apply In_upd_nth in Hu as [->|Hu]; auto.
  - exact (pairwise_upd _ _ s i t t' Hex Hi Hshare Hshare).
  - intros u Hu. apply In_upd_nth in Hu as [->|Hu]; eauto using thread_step_disc.
Qed.

Lemma run_wf sched : forall s s', wf s -> run s sched = Some s' -> wf s'.
Proof.
  induction sched as [|[i c] r IH]; simpl; intros s s' Hwf H.
  - inversion H; subst; exact Hwf.
  - destruct (sys_step s i c) as [s1|] eqn:E; [|discriminate].
    eapply IH; [eapply sys_step_wf; eauto|exact H].
Qed.

Lemma spawn_wf ps : (forall p, In p ps -> disc [] p) -> wf (spawn ps).
Proof.
  intros H.
  assert (Hs : forall t, In t (spawn ps) -> held t = [] /\ disc [] (code t)).
  { intros t Ht. apply in_map_iff in Ht as [p [<- Hp]]. auto. }
  split; [split|].
  - intros t Ht. destruct (Hs t Ht) as [-> _]. constructor.
  - intros i j ti tj l Hi _ Hl. apply nth_error_In, Hs in Hi as [E _]. rewrite E in Hl. destruct Hl.
  - intros t Ht. destruct (Hs t Ht) as [-> Hd]. exact Hd.
Qed.

Lemma reachable_wf ps sched s' :
  (forall p, In p ps -> disc [] p) -> run (spawn ps) sched = Some s' -> wf s'.
Proof. intros H. apply run_wf, spawn_wf, H. Qed.

Definition awaited (t : thread) : option lock :=
  match code t with PAcq l _ => Some l | _ => None end.

Lemma awaited_outranks t l l' :
  disc (held t) (code t) -> awaited t = Some l -> In l' (held t) -> rank l' < rank l.
Proof. unfold awaited. destruct (code t); try discriminate. intros [Hrk _] [= ->]. apply Hrk. Qed.

Lemma moves_or_awaits s t c : disc (held t) (code t) -> is_done t = false ->
  thread_step s t c <> None \/ exists l, awaited t = Some l /\ is_free s l = false.
Proof.
  unfold is_done, awaited, thread_step. intros Hd Hdone.
  destruct (code t) as [|l k|l k|l kok kfail|k1 k2|k|k]; simpl in *; try discriminate; try (left; discriminate).
  - destruct (is_free s l) eqn:E; [left; discriminate|eauto].
  - left. destruct Hd as [Hin _]. apply lmem_In in Hin. rewrite Hin. discriminate.
  - left. destruct (is_free s l); discriminate.
Qed.

Lemma holder_active t l :
  disc (held t) (code t) -> In l (held t) -> is_done t = false /\ at_block t = false.
Proof.
  unfold is_done, at_block. intros Hd Hl.
  destruct (code t); simpl in *; auto.
  - rewrite Hd in Hl. destruct Hl.
  - destruct Hd as [Hd _]. rewrite Hd in Hl. destruct Hl.
Qed.

(* A lock that is taken has a holder, who has neither finished nor is waiting for the environment.  If
   the holder cannot move, it awaits a lock that is taken as well and, by the discipline, outranks the
   one it holds.  Ranks end at 2, so [n] such hops with [3 <= rank l + n] reach a thread that moves. *)
Lemma taken_lock_moves s : wf s -> forall n l,
  is_free s l = false -> 3 <= rank l + n ->
  exists u, In u s /\ at_block u = false /\ thread_step s u true <> None.
Proof.
  intros [_ Hd]. induction n as [|n IH]; intros l Hf Hn.
  - destruct l; simpl in Hn; lia.
  - apply not_free_holder in Hf as [u [Hu Hl]]. pose proof (Hd u Hu) as Hdu.
    destruct (holder_active u l Hdu Hl) as [Hdn Hbl].
    destruct (moves_or_awaits s u true Hdu Hdn) as [Hm|(l' & Hl' & Hf')]; [eauto|].
    apply (IH l' Hf'). pose proof (awaited_outranks u l' l Hdu Hl' Hl). lia.
Qed.

Theorem progress s :
  wf s -> quiescent s = false ->
  exists i t c, nth_error s i = Some t /\ at_block t = false /\ thread_step s t c <> None.
Proof.
  intros Hwf Hq. apply forallb_false_ex in Hq as [t [Ht Hq]]. pose proof (proj2 Hwf t Ht) as Hd.
  assert (Ha : is_done t = false /\ at_block t = false).
  { destruct (held t) as [|l r] eqn:E in Hq.
    - apply orb_false_iff. rewrite andb_true_r in Hq. exact Hq.
    - apply (holder_active t l Hd). rewrite E. left. reflexivity. }
  destruct Ha as [Hdn Hbl].
  assert (Hmove : exists u, In u s /\ at_block u = false /\ thread_step s u true <> None).
  { destruct (moves_or_awaits s t true Hd Hdn) as [Hm|(l & _ & Hf)]; [eauto|].
    apply (taken_lock_moves s Hwf 3 l Hf). lia. }
  destruct Hmove as (u & Hu & Hb & Hm). apply In_nth_error in Hu as [i Hi]. eauto 6.
Qed.

Lemma thread_step_size s t c t' : thread_step s t c = Some t' -> psize (code t') < psize (code t).
Proof.
  unfold thread_step.
  destruct (code t) as [|l k|l k|l a b|a b|k|k];
    [|destruct (is_free s l)|destruct (lmem l (held t))|destruct (is_free s l)|destruct c| |];
    intros [= <-]; simpl; lia.
Qed.

Lemma total_upd s : forall i t t', nth_error s i = Some t ->
  total (upd_nth i t' s) + psize (code t) = total s + psize (code t').
Proof.
  induction s as [|x r IH]; intros [|i] t t' H; simpl in *; try discriminate.
  - inversion H; subst. lia.
  - specialize (IH i t t' H). lia.
Qed.

Lemma sys_step_total s i c s' : sys_step s i c = Some s' -> total s' < total s.
Proof.
  intros H. apply sys_step_inv in H as (t & t' & Hi & Hst & ->).
  pose proof (total_upd s i t t' Hi). pose proof (thread_step_size _ _ _ _ Hst). lia.
Qed.

Lemma run_total sched : forall s s', run s sched = Some s' -> length sched + total s' <= total s.
Proof.
  induction sched as [|[i c] r IH]; simpl; intros s s' H.
  - inversion H; subst; lia.
  - destruct (sys_step s i c) as [s1|] eqn:E; [|discriminate].
    pose proof (sys_step_total _ _ _ _ E). specialize (IH _ _ H). lia.
Qed.

Lemma wait_free_moves s t c :
  disc (held t) (code t) -> wait_free (code t) = true -> is_done t = false ->
  exists t', thread_step s t c = Some t' /\ wait_free (code t') = true.
Proof.
  unfold thread_step, is_done. intros Hd Hw Hdn.
  destruct (code t) as [|l k|l k|l kok kfail|k1 k2|k|k]; simpl in *; try discriminate.
  - destruct Hd as [Hin _]. apply lmem_In in Hin. rewrite Hin. eauto.
  - apply andb_true_iff in Hw as [H1 H2]. destruct (is_free s l); eauto.
  - apply andb_true_iff in Hw as [H1 H2]. destruct c; eauto.
  - eauto.
Qed.

Lemma slock_eqb_eq a b : slock_eqb a b = true <-> a = b.
Proof. destruct a, b; simpl; rewrite ?Nat.eqb_eq; split; congruence. Qed.

Lemma smem_In l h : smem l h = true <-> In l h.
Proof. apply (mem_spec slock_eqb); auto using slock_eqb_eq. Qed.

Lemma sheld_eqb_eq a b : sheld_eqb a b = true <-> a = b.
Proof.
  revert b; induction a as [|x a IH]; intros [|y b]; simpl; try (split; congruence).
  rewrite andb_true_iff, slock_eqb_eq, IH. split; [intros [-> ->]; reflexivity|intros [= -> ->]; auto].
Qed.

Lemma rank_plock rho l : rank (plock rho l) = srank l.
Proof. destruct l; reflexivity. Qed.

Lemma phys_upd_env rho v i h : smem (SShard v) h = false -> phys (upd_env rho v i) h = phys rho h.
Proof.
  induction h as [|x r IH]; simpl; [reflexivity|]. intros H.
  apply orb_false_iff in H as [Hx Hr]. rewrite (IH Hr). f_equal.
  destruct x as [|w|n]; simpl; try reflexivity.
  unfold upd_env. simpl in Hx. rewrite Nat.eqb_sym in Hx. rewrite Hx. reflexivity.
Qed.

Lemma phys_remove1 rho l h :
  NoDup (phys rho h) -> In l h -> phys rho (sremove1 l h) = remove1 (plock rho l) (phys rho h).
Proof.
  induction h as [|x r IH]; simpl; [intros _ []|]. intros Hnd Hin.
  inversion Hnd as [|? ? Hx Hr]; subst.
  destruct (slock_eqb l x) eqn:E.
  - apply slock_eqb_eq in E; subst x. rewrite lock_eqb_refl. reflexivity.
  - destruct Hin as [Heq|Hin]; [subst x; rewrite (proj2 (slock_eqb_eq l l) eq_refl) in E; discriminate|].
    destruct (lock_eqb (plock rho l) (plock rho x)) eqn:E2.
    + exfalso. apply lock_eqb_eq in E2. apply Hx. rewrite <- E2. apply in_map. exact Hin.
    + simpl. f_equal. apply IH; assumption.
Qed.

(* [post rho r k]: the verdict [r] is not a rejection, and if the construct falls through, holding [h],
   the continuation [k] obeys the discipline from there.  A construct that never falls through asks
   nothing of [k]. *)
Definition post (rho : nat -> nat) (r : cres) (k : prog) : Prop :=
  match r with
  | CFail => False
  | CNoExit => True
  | CExit h => NoDup (phys rho h) -> disc (phys rho h) k
  end.

Lemma post_cjoin rho a b k : post rho (cjoin a b) k -> post rho a k /\ post rho b k.
Proof.
  destruct a as [| |h1], b as [| |h2]; simpl; auto; try contradiction.
  destruct (sheld_eqb h1 h2) eqn:E; simpl; [|contradiction].
  apply sheld_eqb_eq in E. subst. auto.
Qed.

(* [SStar] and [SFun] judge their body the same way: it must not fall through anywhere but at [h]. *)
Definition cloop (r : cres) (h : list slock) : cres :=
  match r with
  | CFail => CFail
  | CNoExit => CExit h
  | CExit h' => if sheld_eqb h' h then CExit h else CFail
  end.

Lemma post_cloop rho r h k : post rho (cloop r h) k ->
  post rho (CExit h) k /\ forall k', post rho (CExit h) k' -> post rho r k'.
Proof.
  destruct r as [| |h']; simpl; auto; try contradiction.
  destruct (sheld_eqb h' h) eqn:E; simpl; [|contradiction].
  apply sheld_eqb_eq in E. subst. auto.
Qed.

Theorem check_sound s rho kn kr p :
  den s rho kn kr p ->
  forall h hret,
    NoDup (phys rho h) -> disc (phys rho hret) kr -> post rho (check s h hret) kn ->
    disc (phys rho h) p.
Proof.
  induction 1 as
    [ | | | l ok fail rho kn kr pok pfail _ IHok _ IHfail | a b rho kn kr pb p _ IHb _ IHa
    | a b rho kn kr pa pb _ IHa _ IHb | | a rho kn kr ploop pbody _ IHloop _ IHbody
    | v body rho i kn kr p _ IHbody | | | | body rho kn kr p _ IHbody ];
    intros h hret Hnd Hkr Hkn; cbn [check] in Hkn.
  (* the cases in the order of [den]: skip, acquire, release, try-lock, sequence, choice, loop left,
     loop iterated, shard binding, block, I/O, return, function *)
  - exact (Hkn Hnd).
  - (* acquire: the checker compared the rank with every lock held, and ranks survive [phys] *)
    destruct (forallb _ h) eqn:E; [|contradiction].
    assert (Hrk : forall l', In l' (phys rho h) -> rank l' < rank (plock rho l)).
    { intros l' Hl'. apply in_map_iff in Hl' as [x [<- Hx]].
      rewrite !rank_plock. rewrite forallb_forall in E. apply Nat.ltb_lt, E, Hx. }
    split; [exact Hrk|]. apply Hkn. constructor; [|exact Hnd].
    intros Hin. apply Hrk in Hin. lia.
  - destruct (smem l h) eqn:E; [|contradiction]. apply smem_In in E.
    simpl in Hkn. rewrite phys_remove1 in Hkn by assumption.
    split; [apply in_map, E|apply Hkn, remove1_NoDup, Hnd].
  - (* try-lock: while [l] is held the attempt fails; otherwise success continues with [l] added *)
    destruct (smem l h) eqn:E.
    + split; [|eauto]. intros Hn. destruct Hn. apply in_map, smem_In, E.
    + apply post_cjoin in Hkn as [Hok Hfail]. split; [|eauto].
      intros Hn. apply (IHok (l :: h) hret); auto. constructor; auto.
  - apply (IHa h hret); auto.
    destruct (check a h hret) as [| |h1]; simpl; eauto.
  - apply post_cjoin in Hkn as [Ha Hb]. split; eauto.
  - apply post_cloop in Hkn as [Hk _]. exact (Hk Hnd).
  - (* the verdict on the loop, kept for the iterations that follow this one *)
    pose proof Hkn as Hstar. apply post_cloop in Hkn as [Hk Hbody].
    split; [exact (Hk Hnd)|]. apply (IHbody h hret); auto.
    apply Hbody. intros _. exact (IHloop h hret Hnd Hkr Hstar).
  - (* shard binding: no lock in sight names [v], so the held sets mean the same under the new binding *)
    destruct (smem (SShard v) h) eqn:E1; [contradiction|].
    destruct (smem (SShard v) hret) eqn:E2; [contradiction|]. simpl in Hkn.
    rewrite <- (phys_upd_env rho v i h E1). apply (IHbody h hret).
    + rewrite phys_upd_env by exact E1. exact Hnd.
    + rewrite phys_upd_env by exact E2. exact Hkr.
    + destruct (check body h hret) as [| |h']; auto.
      destruct (smem (SShard v) h') eqn:E3; [contradiction|].
      simpl. rewrite phys_upd_env by exact E3. exact Hkn.
  - destruct h; [|contradiction]. split; [reflexivity|]. apply Hkn. constructor.
  - exact (Hkn Hnd).
  - destruct (sheld_eqb h hret) eqn:E; [|contradiction]. apply sheld_eqb_eq in E. subst. exact Hkr.
  - apply post_cloop in Hkn as [Hk Hbody]. apply (IHbody h h); auto.
Qed.

Lemma entry_disc e rho p : entry_ok e = true -> den (SFun e) rho PDone PDone p -> disc [] p.
Proof.
  unfold entry_ok. intros Hok Hden.
  apply (check_sound _ _ _ _ _ Hden [] []); [constructor|reflexivity|].
  destruct (check (SFun e) [] []) as [| |[|]]; try discriminate. intros _. reflexivity.
Qed.

Lemma waitfree_den s rho kn kr p :
  den s rho kn kr p -> waitfree_skel s = true -> wait_free kn = true -> wait_free kr = true ->
  wait_free p = true.
Proof.
  induction 1; cbn [waitfree_skel]; intros Hs Hn Hr; simpl; auto; try discriminate.
  - apply andb_true_iff in Hs as [H1 H2]. rewrite IHden1, IHden2; auto.
  - apply andb_true_iff in Hs as [H1 H2]. apply IHden2; auto.
  - apply andb_true_iff in Hs as [H1 H2]. rewrite IHden1, IHden2; auto.
  - rewrite Hn. simpl. apply IHden2; auto.
Qed.

Lemma no_shard_den s rho kn kr p :
  den s rho kn kr p -> no_shard_acq s = true ->
  never_awaits_shard kn = true -> never_awaits_shard kr = true ->
  never_awaits_shard p = true.
Proof.
  induction 1; cbn [no_shard_acq]; intros Hs Hn Hr; simpl; auto; try discriminate.
  - destruct l; simpl in *; try discriminate; auto.
  - apply andb_true_iff in Hs as [H1 H2]. rewrite IHden1, IHden2; auto.
  - apply andb_true_iff in Hs as [H1 H2]. apply IHden2; auto.
  - apply andb_true_iff in Hs as [H1 H2]. rewrite IHden1, IHden2; auto.
  - rewrite Hn. simpl. apply IHden2; auto.
Qed.

Theorem disciplined_systems_complete ps sched s' :
  (forall p, In p ps -> disc [] p) ->
  run (spawn ps) sched = Some s' ->
  (quiescent s' = true \/
   exists i t c, nth_error s' i = Some t /\ at_block t = false /\ thread_step s' t c <> None)
  /\ length sched + total s' <= total (spawn ps).
Proof.
  intros Hd Hrun. split; [|apply run_total, Hrun].
  destruct (quiescent s') eqn:Eq; [left; reflexivity|right].
  apply progress; [|exact Eq]. exact (reachable_wf ps sched s' Hd Hrun).
Qed.

Lemma threads_disc entries ps :
  forallb entry_ok entries = true -> (forall p, In p ps -> thread_of entries p) ->
  forall p, In p ps -> disc [] p.
Proof.
  intros Hok Hth p Hp. destruct (Hth p Hp) as (e & rho & He & Hden).
  rewrite forallb_forall in Hok. exact (entry_disc e rho p (Hok e He) Hden).
Qed.

Theorem checked_entries_deadlock_free entries ps sched s' :
  forallb entry_ok entries = true ->
  (forall p, In p ps -> thread_of entries p) ->
  run (spawn ps) sched = Some s' ->
  (quiescent s' = true \/
   exists i t c, nth_error s' i = Some t /\ at_block t = false /\ thread_step s' t c <> None)
  /\ length sched + total s' <= total (spawn ps).
Proof. intros Hok Hth. apply disciplined_systems_complete, (threads_disc entries); assumption. Qed.

(* A thread running a wait-free entry moves whenever it is scheduled, in any
   reachable state of any system of checked entries, until it has finished. *)
Theorem waitfree_entry_never_waits entries ps sched s' i t c :
  forallb entry_ok entries = true ->
  (forall p, In p ps -> thread_of entries p) ->
  run (spawn ps) sched = Some s' ->
  nth_error s' i = Some t -> wait_free (code t) = true -> is_done t = false ->
  exists t', thread_step s' t c = Some t' /\ wait_free (code t') = true.
Proof.
  intros Hok Hth Hrun Hi Hw Hdn. apply wait_free_moves; auto.
  apply (reachable_wf ps sched s' (threads_disc entries ps Hok Hth) Hrun), (nth_error_In _ _ Hi).
Qed.
