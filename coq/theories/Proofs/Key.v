(* C02 — proofs about the cache key (Model/Key.v). *)
From Reservoir Require Import Base.Prelude Base.Strings Model.Key.
From Coq Require Import DecimalN.

(* Reading the digits back as constructors inverts [uint_digits]. *)
Fixpoint digits_uint (s : str) : Decimal.uint :=
  match s with
  | [] => Decimal.Nil
  | c :: r =>
      nth (Z.to_nat (c - 48))
        [Decimal.D0; Decimal.D1; Decimal.D2; Decimal.D3; Decimal.D4;
         Decimal.D5; Decimal.D6; Decimal.D7; Decimal.D8; Decimal.D9] Decimal.D0 (digits_uint r)
  end.

Lemma digits_uint_digits d : digits_uint (uint_digits d) = d.
Proof. induction d; cbn; [reflexivity|rewrite IHd; reflexivity..]. Qed.

Lemma dec_inj n m : dec n = dec m -> n = m.
Proof.
  intros H. apply Unsigned.to_uint_inj.
  rewrite <- (digits_uint_digits (N.to_uint n)), <- (digits_uint_digits (N.to_uint m)).
  exact (f_equal digits_uint H).
Qed.

Lemma dec_no_colon n : ~ In COLON (dec n).
Proof.
  unfold dec. induction (N.to_uint n); simpl;
    [intros []|intros [H|H]; [discriminate H|contradiction]..].
Qed.

(* [field] is a prefix code: what follows a field cannot be confused with the field. *)
Lemma field_inj (a b x y : str) : field a ++ x = field b ++ y -> a = b /\ x = y.
Proof.
  unfold field. rewrite <- !app_assoc. cbn [app]. intros H.
  assert (Hd : dec (N.of_nat (length a)) = dec (N.of_nat (length b))).
  { (* the text before the first colon *)
    apply (f_equal (split_on COLON)) in H.
    rewrite !split_on_app, !(split_on_nosep COLON (dec _)) in H by apply dec_no_colon.
    injection H as H _. exact H. }
  rewrite Hd in H. apply app_inv_head in H. injection H as H.
  apply dec_inj, Nnat.Nat2N.inj in Hd. apply app_same_length; assumption.
Qed.

Lemma encode_inj t1 m1 h1 p1 q1 t2 m2 h2 p2 q2 :
  encode t1 m1 h1 p1 q1 = encode t2 m2 h2 p2 q2 ->
  t1 = t2 /\ m1 = m2 /\ h1 = h2 /\ p1 = p2 /\ q1 = q2.
Proof.
  unfold encode. intros H.
  assert (Ht : t1 = t2) by (destruct t1, t2; (reflexivity || discriminate H)).
  subst t2. apply app_inv_head in H. injection H as H.
  apply field_inj in H as [Hm H]. injection H as H.
  apply field_inj in H as [Hh H]. injection H as H.
  apply field_inj in H as [Hp H]. injection H as H.
  rewrite <- (app_nil_r (field q1)), <- (app_nil_r (field q2)) in H.
  apply field_inj in H as [Hq _]. auto.
Qed.

(* split_slash and join_slash are the shared split_on and join_with at '/' *)
Lemma split_slash_on s : split_slash s = split_on SLASH s.
Proof. induction s as [|c r IH]; simpl; [|rewrite IH]; reflexivity. Qed.

Lemma join_slash_with l : join_slash l = join_with SLASH l.
Proof.
  destruct l as [|s r]; [reflexivity|]. simpl join_slash.
  revert s. induction r as [|s' r IH]; intros s; [apply app_nil_r|].
  cbn [flat_map app]. rewrite IH. reflexivity.
Qed.

Definition noslash (s : str) : Prop := ~ In SLASH s.

Lemma split_noslash s : Forall noslash (split_slash s).
Proof. rewrite split_slash_on. apply split_on_parts. Qed.

(* from here on [split_join] is this lemma about '/', not the one of Base/Strings.v it instantiates *)
Lemma split_join l : l <> [] -> Forall noslash l -> split_slash (join_slash l) = l.
Proof. rewrite split_slash_on, join_slash_with. apply split_join_nosep. Qed.

Lemma noslash_nil : noslash [].
Proof. intros []. Qed.
Lemma noslash_dot : noslash [DOT].
Proof. intros [H|[]]; discriminate. Qed.
Lemma noslash_dotdot : noslash [DOT; DOT].
Proof. intros [H|[H|[]]]; discriminate. Qed.

Lemma has_suffix_iff suf s : has_suffix suf s = true <-> exists x, s = x ++ suf.
Proof.
  unfold has_suffix. split.
  - intros H. apply andb_true_iff in H as [H1 H2]. apply str_eqb_eq in H2.
    exists (firstn (length s - length suf) s). rewrite <- H2 at 2. symmetry. apply firstn_skipn.
  - intros [x ->]. rewrite app_length. apply andb_true_iff. split.
    + apply Nat.leb_le, Nat.le_add_l.
    + rewrite Nat.add_sub, skipn_app, skipn_all, Nat.sub_diag. simpl. apply str_eqb_refl.
Qed.

Lemma rooted_suffix_last t w :
  noslash w ->
  has_suffix (SLASH :: w) (SLASH :: t) = str_eqb (last (split_slash t) []) w.
Proof.
  intros Hw. apply eq_true_iff_eq.
  rewrite has_suffix_iff, str_eqb_eq, split_slash_on. symmetry. apply last_split_on, Hw.
Qed.

Lemma dir_suffix t :
  has_suffix [SLASH] (SLASH :: t) || has_suffix [SLASH; DOT] (SLASH :: t) ||
    has_suffix [SLASH; DOT; DOT] (SLASH :: t) = is_dirlike (last (split_slash t) []).
Proof.
  rewrite !rooted_suffix_last by auto using noslash_nil, noslash_dot, noslash_dotdot.
  destruct (last _ _); reflexivity.
Qed.

Lemma clean_step_nil_seg b st : clean_step b st [] = st.
Proof. destruct st. reflexivity. Qed.

(* on a rooted path path.Clean keeps no leading ".." and its stack is the reference's *)
Lemma fold_clean_rooted segs out :
  fold_left (clean_step true) segs (O, out) = (O, fold_left seg_step segs out).
Proof.
  revert out. induction segs as [|s segs IH]; intros out; [reflexivity|].
  cbn [fold_left]. rewrite <- IH. f_equal.
  unfold clean_step, seg_step.
  destruct (is_empty s || is_dot s); [reflexivity|].
  destruct (is_dotdot s); [|reflexivity]. destruct out; reflexivity.
Qed.

Lemma clean_go_rooted t :
  clean_go (SLASH :: t) = SLASH :: join_slash (norm_segs (split_slash t)).
Proof.
  unfold clean_go. rewrite Z.eqb_refl.
  change (split_slash (SLASH :: t)) with ([] :: split_slash t).
  simpl fold_left at 1. rewrite fold_clean_rooted. reflexivity.
Qed.

(* The stack never holds an empty segment, so its join is empty only when it is. *)
Definition real_seg (s : str) : Prop := s <> [].

Lemma seg_step_real out s : Forall real_seg out -> Forall real_seg (seg_step out s).
Proof.
  intros H. unfold seg_step. destruct s as [|c s]; [exact H|]. cbn [is_empty orb].
  destruct (is_dot _); [exact H|].
  destruct (is_dotdot _); [destruct H; [constructor|assumption]|].
  constructor; [discriminate|exact H].
Qed.

Lemma norm_segs_real segs : Forall real_seg (norm_segs segs).
Proof.
  unfold norm_segs. apply Forall_rev. generalize (Forall_nil real_seg).
  generalize (@nil str). induction segs as [|s segs IH]; intros out H; [exact H|].
  apply IH, seg_step_real, H.
Qed.

Lemma root_join_norm segs :
  str_eqb (SLASH :: join_slash (norm_segs segs)) [SLASH] = negb (nonempty (norm_segs segs)).
Proof.
  destruct (norm_segs_real segs) as [|s r Hs _]; [reflexivity|].
  destruct s; [contradiction|reflexivity].
Qed.

Lemma rooted_inv p : rooted p = true -> exists t, p = SLASH :: t.
Proof.
  destruct p as [|c t]; [discriminate|]. intros H. apply Z.eqb_eq in H. subst c. eauto.
Qed.

Theorem clean_go_is_norm p : rooted p = true -> key_path p = norm_path p.
Proof.
  intros H. apply rooted_inv in H as [t ->].
  unfold key_path, norm_path. rewrite Z.eqb_refl, dir_suffix, clean_go_rooted, root_join_norm.
  rewrite negb_involutive, andb_comm.
  destruct (is_dirlike _ && nonempty _); [reflexivity|rewrite app_nil_r; reflexivity].
Qed.

(* On what net/http delivers the key's path is the reference normal form, except that
   the empty path is keyed as "."; no normal form is "." itself. *)
Definition dot_if_empty (q : str) : str := match q with [] => [DOT] | _ => q end.

Lemma key_path_wire p :
  wire_path p -> key_path p = dot_if_empty (norm_path p) /\ hd 0 (norm_path p) <> DOT.
Proof.
  intros [->|[->|H]]; [split; [reflexivity|discriminate]..|].
  rewrite (clean_go_is_norm p H). apply rooted_inv in H as [t ->].
  unfold norm_path. rewrite Z.eqb_refl. split; [reflexivity|discriminate].
Qed.

Lemma dot_if_empty_inj x y :
  hd 0 x <> DOT -> hd 0 y <> DOT -> dot_if_empty x = dot_if_empty y -> x = y.
Proof. destruct x, y; simpl; congruence. Qed.

Lemma key_path_eq_iff a b :
  wire_path a -> wire_path b -> (key_path a = key_path b <-> norm_path a = norm_path b).
Proof.
  intros Ha Hb.
  destruct (key_path_wire a Ha) as [-> Na], (key_path_wire b Hb) as [-> Nb].
  split; [apply dot_if_empty_inj; assumption|intros ->; reflexivity].
Qed.

Theorem key_string_eq_iff a b :
  wire_path (r_path a) -> wire_path (r_path b) ->
  (key_string a = key_string b <-> r_tls a = r_tls b /\ same_resource a b).
Proof.
  intros Ha Hb. unfold key_string, same_resource. rewrite <- (key_path_eq_iff _ _ Ha Hb). split.
  - intros H. apply encode_inj in H. tauto.
  - intros (Ht & Hm & Hh & Hp & Hq). congruence.
Qed.

Theorem key_iff_same_resource a b :
  wire_req a -> wire_req b -> r_tls a = r_tls b ->
  (key_string a = key_string b <-> same_resource a b).
Proof.
  intros [_ Ha] [_ Hb] Ht. rewrite (key_string_eq_iff a b Ha Hb). tauto.
Qed.

Lemma same_resource_b_iff a b : same_resource_b a b = true <-> same_resource a b.
Proof.
  unfold same_resource_b, same_resource. split.
  - intros H. repeat (apply andb_true_iff in H as [H ?]).
    repeat split; apply str_eqb_eq; assumption.
  - intros (-> & -> & -> & ->). rewrite !str_eqb_refl. reflexivity.
Qed.

(* What does and does not distinguish two requests (the statement's examples,
   for every path built from slash-free segments) *)

Definition path_of (segs : list str) : str := SLASH :: join_slash segs.
Definition normal_seg (s : str) : Prop := is_dirlike s = false.
Definition set_path (r : request) (p : str) : request :=
  {| r_tls := r_tls r; r_method := r_method r; r_host := r_host r; r_path := p; r_query := r_query r |}.
Definition set_host (r : request) (h : str) : request :=
  {| r_tls := r_tls r; r_method := r_method r; r_host := h; r_path := r_path r; r_query := r_query r |}.

Lemma wire_path_of segs : wire_path (path_of segs).
Proof. right. right. reflexivity. Qed.

Lemma set_path_key_iff r p p' :
  wire_path p -> wire_path p' ->
  (key_string (set_path r p) = key_string (set_path r p') <-> norm_path p = norm_path p').
Proof.
  intros Hp Hp'. rewrite (key_string_eq_iff (set_path r p) (set_path r p') Hp Hp').
  unfold same_resource. simpl. tauto.
Qed.

Lemma norm_path_of segs :
  Forall noslash segs ->
  norm_path (path_of segs) =
  SLASH :: join_slash (norm_segs segs) ++
    (if is_dirlike (last segs []) && nonempty (norm_segs segs) then [SLASH] else []).
Proof.
  intros Hf. destruct segs as [|s r]; [reflexivity|].
  unfold path_of, norm_path. rewrite Z.eqb_refl, split_join by (discriminate || assumption).
  reflexivity.
Qed.

Lemma seg_step_normal out s : normal_seg s -> seg_step out s = s :: out.
Proof.
  unfold normal_seg, is_dirlike, seg_step. intros H.
  apply orb_false_iff in H as [-> ->]. reflexivity.
Qed.

Lemma norm_segs_insert xs ys mid out' :
  (forall out, fold_left seg_step mid out = out' out) ->
  (forall out, out' out = out) ->
  norm_segs (xs ++ mid ++ ys) = norm_segs (xs ++ ys).
Proof.
  intros H1 H2. unfold norm_segs. rewrite !fold_left_app. rewrite H1, H2. reflexivity.
Qed.

(* Segments that leave the stack as they found it are irrelevant anywhere before the last one. *)
Theorem norm_path_skip xs mid ys :
  (forall out, fold_left seg_step mid out = out) ->
  Forall noslash mid -> ys <> [] -> Forall noslash (xs ++ ys) ->
  norm_path (path_of (xs ++ mid ++ ys)) = norm_path (path_of (xs ++ ys)).
Proof.
  intros Hmid Hm Hy Hf. apply Forall_app in Hf as [Hx Hys].
  rewrite !norm_path_of by (rewrite !Forall_app; auto).
  rewrite (norm_segs_insert xs ys mid (fun out => out)) by auto.
  destruct (exists_last Hy) as (ys' & l & ->). rewrite !app_assoc, !last_last. reflexivity.
Qed.

Theorem skip_shares r xs mid ys :
  (forall out, fold_left seg_step mid out = out) ->
  Forall noslash mid -> ys <> [] -> Forall noslash (xs ++ ys) ->
  key_string (set_path r (path_of (xs ++ mid ++ ys))) = key_string (set_path r (path_of (xs ++ ys))).
Proof.
  intros. apply set_path_key_iff; auto using wire_path_of, norm_path_skip.
Qed.

Theorem dot_segment_shares r xs ys s :
  s = [] \/ s = [DOT] -> ys <> [] -> Forall noslash (xs ++ ys) ->
  key_string (set_path r (path_of (xs ++ s :: ys))) = key_string (set_path r (path_of (xs ++ ys))).
Proof.
  intros Hs. apply (skip_shares r xs [s] ys).
  - intros out. destruct Hs as [->| ->]; reflexivity.
  - destruct Hs as [->| ->]; auto using noslash_nil, noslash_dot.
Qed.

Theorem dotdot_segment_shares r xs ys s :
  normal_seg s -> noslash s -> ys <> [] -> Forall noslash (xs ++ ys) ->
  key_string (set_path r (path_of (xs ++ s :: [DOT; DOT] :: ys))) =
  key_string (set_path r (path_of (xs ++ ys))).
Proof.
  intros Hs Hn. apply (skip_shares r xs [s; [DOT; DOT]] ys).
  - intros out. cbn [fold_left]. rewrite (seg_step_normal out s Hs). reflexivity.
  - auto using noslash_dotdot.
Qed.

Theorem norm_path_trailing_slash xs s :
  normal_seg s -> noslash s -> Forall noslash xs ->
  norm_path (path_of (xs ++ [s; []])) <> norm_path (path_of (xs ++ [s])).
Proof.
  intros Hs Hns Hf.
  rewrite !norm_path_of by (rewrite Forall_app; auto using noslash_nil).
  change [s; []] with ([s] ++ [[]]). rewrite app_assoc, !last_last.
  change (is_dirlike []) with true. rewrite Hs.
  assert (E : norm_segs ((xs ++ [s]) ++ [[]]) = norm_segs (xs ++ [s]))
    by (unfold norm_segs; rewrite fold_left_app; reflexivity).
  assert (N : nonempty (norm_segs (xs ++ [s])) = true).
  { unfold norm_segs. rewrite fold_left_app. cbn [fold_left]. rewrite (seg_step_normal _ s Hs).
    cbn [rev]. destruct (rev _); reflexivity. }
  rewrite E, N. intros H. injection H as H. apply app_inv_head in H. discriminate.
Qed.

Lemma lower_upper_str h : lower_str (map to_upper h) = lower_str h.
Proof.
  unfold lower_str. rewrite map_map. apply map_ext. apply to_lower_upper.
Qed.

Lemma lower_lower_str h : lower_str (lower_str h) = lower_str h.
Proof.
  unfold lower_str. rewrite map_map. apply map_ext. apply to_lower_idem.
Qed.

Theorem host_case_shares r h' :
  lower_str h' = lower_str (r_host r) -> key_string (set_host r h') = key_string r.
Proof. intros H. unfold key_string. simpl. rewrite H. reflexivity. Qed.
