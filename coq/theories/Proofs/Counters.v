(* Proofs about Model/Counters.v.  Every update moves the byte counter first and the metric later, so the
   metric lags by exactly the deltas still outstanding: metric + outstanding = bytes is kept by every step
   (cstep_inv), and with nothing outstanding the two agree.  The janitor's overwrite breaks this. *)
From Reservoir Require Import Base.Prelude Model.Counters.

Lemma zsum_remove_nth l : forall i d, nth_error l i = Some d -> zsum (remove_nth i l) + d = zsum l.
Proof.
  induction l as [|x r IH]; intros [|i] d H; simpl in *; try discriminate.
  - inversion H; subst. lia.
  - specialize (IH i d H). unfold zsum in *. simpl. lia.
Qed.

(* Without the janitor's overwrite: metric + outstanding second halves = byte counter, always. *)
Lemma cstep_inv s a s' :
  cstep false s a = Some s' -> c_metric s + zsum (c_pending s) = c_bytes s ->
  c_metric s' + zsum (c_pending s') = c_bytes s'.
Proof.
  destruct a as [d|i|]; simpl; intros H Inv.
  - inversion H; subst; simpl. unfold zsum in *. simpl. lia.
  - destruct (nth_error (c_pending s) i) as [d|] eqn:E; [|discriminate].
    inversion H; subst; simpl. pose proof (zsum_remove_nth _ _ _ E). lia.
  - discriminate.
Qed.

Lemma crun_inv l : forall s s',
  crun false s l = Some s' -> c_metric s + zsum (c_pending s) = c_bytes s ->
  c_metric s' + zsum (c_pending s') = c_bytes s'.
Proof.
  induction l as [|a r IH]; simpl; intros s s' H Inv.
  - inversion H; subst; exact Inv.
  - destruct (cstep false s a) as [s1|] eqn:E; [|discriminate].
    eapply IH; [exact H|]. eapply cstep_inv; eauto.
Qed.

Theorem metric_quiescent l s' :
  crun false c_init l = Some s' -> quiescent_c s' = true -> c_metric s' = c_bytes s'.
Proof.
  intros H Q. pose proof (crun_inv l c_init s' H eq_refl) as Inv.
  unfold quiescent_c in Q. destruct (c_pending s'); [|discriminate]. unfold zsum in Inv. simpl in Inv. lia.
Qed.

(* With the overwrite the claim fails: a cycle between the two halves of one store. *)
Theorem metric_quiescent_refuted_with_set :
  exists l s', crun true c_init l = Some s' /\ quiescent_c s' = true /\ c_metric s' <> c_bytes s'.
Proof.
  exists [CFirst 500; CJanitorSet; CSecond 0%nat], {| c_bytes := 500; c_metric := 1000; c_pending := [] |}.
  split; [reflexivity|]. split; [reflexivity|discriminate].
Qed.
