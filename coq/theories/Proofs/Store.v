(* Proofs about Model/Store.v: the accounting invariant (C12) and handle
   integrity / no resurrection (C01), for every action list.

   The tests inside [step] are resolved once: [effect] lists what a step can do to a state
   that satisfies the invariant, each outcome as an explicit state, and [step_effect] says
   that is all.  Everything about a single step is proved by cases on [effect]; removals
   (Delete, eviction, cleanup, the eviction inside a store) all go through [remove_all]. *)
From Reservoir Require Import Base.Prelude Base.Amap Model.Store.

Lemma zfirstn_0 {A} (l : list A) : zfirstn 0 l = [].
Proof. reflexivity. Qed.

(* The states a step leads to.  An entry removed together with its file: *)
Definition removed (s : st) (k : Z) (e : ent) : st :=
  add_size (add_count (set_fs (set_ents s (adel k (s_ents s))) (adel (nkey k) (s_fs s))) (-1)) (- e_size e).

(* ABegin: the pending record and, on disk, an empty <hex k>.tmp with a new inode *)
Definition begun (b : backend) (s : st) (k ex ob : Z) : st :=
  match b with
  | Mem => set_wr s (aset k {| w_buf := []; w_ino := 0; w_exp := ex; w_obj := ob |} (s_wr s))
  | File => set_wr (set_ni (set_ino (set_fs s (aset (ntmp k) (s_ni s) (s_fs s))) (aset (s_ni s) [] (s_ino s))) (s_ni s + 1))
                   (aset k {| w_buf := []; w_ino := s_ni s; w_exp := ex; w_obj := ob |} (s_wr s))
  end.

Definition written (b : backend) (s : st) (k : Z) (w : wr) (c : list Z) : st :=
  match b with
  | Mem => set_wr s (aset k {| w_buf := w_buf w ++ c; w_ino := w_ino w; w_exp := w_exp w; w_obj := w_obj w |} (s_wr s))
  | File => set_ino s (aset (w_ino w) (inode_bytes s (w_ino w) ++ c) (s_ino s))
  end.

(* a store given up: the pending record goes, and its temp file *)
Definition aborted (b : backend) (s : st) (k : Z) : st :=
  match b with
  | Mem => set_wr s (adel k (s_wr s))
  | File => set_fs (set_wr s (adel k (s_wr s))) (adel (ntmp k) (s_fs s))
  end.

(* an entry put under k, the counters moved by the difference to what was there *)
Definition installed (s : st) (k : Z) (e : ent) : st :=
  let old := aget k (s_ents s) in
  add_count (add_size (set_ents s (aset k e (s_ents s))) (e_size e - oget e_size old)) (1 - ocount old).

(* the entry a completed store publishes, and the state in which it is published:
   the buffer (memory), or the temp file renamed to <hex k> (file) *)
Definition stored (b : backend) (s : st) (w : wr) : ent :=
  match b with
  | Mem => {| e_data := w_buf w; e_size := zlen (w_buf w); e_exp := w_exp w; e_obj := w_obj w |}
  | File => {| e_data := []; e_size := zlen (inode_bytes s (w_ino w)); e_exp := w_exp w; e_obj := w_obj w |}
  end.

Definition committed (b : backend) (s : st) (k : Z) (w : wr) : st :=
  installed match b with
            | Mem => set_wr s (adel k (s_wr s))
            | File => set_fs (set_wr s (adel k (s_wr s))) (aset (nkey k) (w_ino w) (adel (ntmp k) (s_fs s)))
            end k (stored b s w).

(* [open_handle] without the handle number it also returns *)
Definition opened (s : st) (x : hdl) : st := set_nh (set_hs s (aset (s_nh s) x (s_hs s))) (s_nh s + 1).

(* the handle Get opens on an entry *)
Definition handle_for (b : backend) (s : st) (k : Z) (e : ent) : option hdl :=
  match b with
  | Mem => Some (HMem (e_data e) 0 (e_size e) (e_obj e))
  | File => option_map (fun i => HFile i 0 (e_size e) (e_obj e)) (aget (nkey k) (s_fs s))
  end.

(* UpdateMetadata: a new expiry instant, everything else of the entry kept *)
Definition touched (e : ent) (exp : Z) : ent :=
  {| e_data := e_data e; e_size := e_size e; e_exp := exp; e_obj := e_obj e |}.

(* projections of all these compute *)
Ltac prj :=
  cbn [s_ents s_wr s_fs s_ino s_hs s_bs s_mb s_me s_nh s_ni s_now
       set_ents set_wr set_fs set_ino set_hs add_size add_count publish set_nh set_ni set_now do_reopen init
       removed begun written aborted installed stored committed opened fst snd].

Lemma nkey_inj k k' : nkey k = nkey k' -> k = k'.
Proof. unfold nkey. lia. Qed.
Lemma ntmp_inj k k' : ntmp k = ntmp k' -> k = k'.
Proof. unfold ntmp. lia. Qed.
Lemma nkey_ntmp k k' : nkey k <> ntmp k'.
Proof. unfold nkey, ntmp. lia. Qed.

Lemma eqb_nkey k k' : (nkey k =? nkey k') = (k =? k').
Proof. unfold nkey. destruct (Z.eqb_spec k k'); [subst; apply Z.eqb_refl|apply Z.eqb_neq; lia]. Qed.
Lemma eqb_ntmp k k' : (ntmp k =? ntmp k') = (k =? k').
Proof. unfold ntmp. destruct (Z.eqb_spec k k'); [subst; apply Z.eqb_refl|apply Z.eqb_neq; lia]. Qed.
Lemma eqb_nkey_ntmp k k' : (nkey k =? ntmp k') = false.
Proof. apply Z.eqb_neq, nkey_ntmp. Qed.
Lemma eqb_ntmp_nkey k k' : (ntmp k =? nkey k') = false.
Proof. rewrite Z.eqb_sym. apply eqb_nkey_ntmp. Qed.

(* lookups after updates, then the cases of the key comparisons they leave *)
Ltac amap := repeat rewrite ?aget_aset, ?aget_adel, ?eqb_nkey, ?eqb_ntmp, ?eqb_nkey_ntmp, ?eqb_ntmp_nkey.
Ltac zeq := repeat match goal with |- context [?a =? ?b] => destruct (Z.eqb_spec a b); subst end.

Lemma ahas_true {V} k (m : list (Z * V)) : ahas k m = true <-> exists v, aget k m = Some v.
Proof. unfold ahas. destruct (aget k m) as [v|]; split; [eauto|reflexivity|discriminate|intros [v H]; discriminate]. Qed.
Lemma ahas_false {V} k (m : list (Z * V)) : ahas k m = false <-> aget k m = None.
Proof. unfold ahas. destruct (aget k m); split; intros H; auto; discriminate. Qed.

(* What every reachable state satisfies.  i_nd_*: keys and file names occur once.  i_bs, i_me, i_mb: the byte
   counter is the sum of the entries' sizes, the entry counter their number, the metric the byte counter.
   i_mem: the memory backend has no files, and an entry records the length of its data.  The directory of
   the file backend: every entry has its file <hex k>, of the recorded length (i_f1); every name is an
   entry's file or the temp file of a pending store (i_f2); every pending store has its temp file (i_f3);
   no inode has two names, i.e. there are no hard links (i_inj).  i_lt_fs, i_lt_h, i_h_lt: s_ni and s_nh
   lie beyond every inode and handle in use, so the next ones are fresh.  i_h_wr: no open handle is on the
   inode of a pending store, so a write never changes what a handle delivers. *)
Set Implicit Arguments.
Unset Strict Implicit.
Record Inv (b : backend) (s : st) : Prop := {
  i_nd_e : NoDup (akeys (s_ents s));
  i_nd_f : NoDup (akeys (s_fs s));
  i_bs : s_bs s = asum e_size (s_ents s);
  i_me : s_me s = zlen (s_ents s);
  i_mb : s_mb s = s_bs s;
  i_mem : b = Mem -> (forall k e, aget k (s_ents s) = Some e -> e_size e = zlen (e_data e)) /\ s_fs s = [];
  i_f1 : b = File -> forall k e, aget k (s_ents s) = Some e ->
         exists i, aget (nkey k) (s_fs s) = Some i /\ zlen (inode_bytes s i) = e_size e;
  i_f2 : forall n i, aget n (s_fs s) = Some i ->
         (exists k e, n = nkey k /\ aget k (s_ents s) = Some e) \/
         (exists k w, n = ntmp k /\ aget k (s_wr s) = Some w /\ w_ino w = i);
  i_f3 : b = File -> forall k w, aget k (s_wr s) = Some w -> aget (ntmp k) (s_fs s) = Some (w_ino w);
  i_inj : forall n n' i, aget n (s_fs s) = Some i -> aget n' (s_fs s) = Some i -> n = n';
  i_lt_fs : forall n i, aget n (s_fs s) = Some i -> i < s_ni s;
  i_lt_h : forall h i off sz obj, aget h (s_hs s) = Some (HFile i off sz obj) -> i < s_ni s;
  i_h_wr : b = File -> forall h i off sz obj k w,
           aget h (s_hs s) = Some (HFile i off sz obj) -> aget k (s_wr s) = Some w -> i <> w_ino w;
  i_h_lt : forall h x, aget h (s_hs s) = Some x -> h < s_nh s
}.
Set Strict Implicit.
Unset Implicit Arguments.

Lemma reopen_inv b s : Inv b (do_reopen s).
Proof. constructor; prj; try discriminate; try constructor; auto; intros; discriminate. Qed.

Lemma inv_init b : Inv b init.
Proof. exact (reopen_inv b init). Qed.

Lemma file_entry_of_name s k i :
  Inv File s -> aget (nkey k) (s_fs s) = Some i ->
  exists e, aget k (s_ents s) = Some e /\ zlen (inode_bytes s i) = e_size e.
Proof.
  intros I H. destruct (i_f2 I H) as [(k0 & e & E1 & E2)|(k0 & w & E1 & _)].
  - apply nkey_inj in E1. subst k0. exists e. split; [exact E2|].
    destruct (i_f1 I eq_refl E2) as (i' & E3 & E4). congruence.
  - destruct (nkey_ntmp _ _ E1).
Qed.

Lemma tmp_absent s k : Inv File s -> pending s k = false -> aget (ntmp k) (s_fs s) = None.
Proof.
  intros I P. destruct (aget (ntmp k) (s_fs s)) as [i|] eqn:E; [|reflexivity].
  destruct (i_f2 I E) as [(k0 & e & A & _)|(k0 & w & A & B & _)].
  - symmetry in A. destruct (nkey_ntmp _ _ A).
  - apply ntmp_inj in A. subst. apply ahas_false in P. congruence.
Qed.

(* the inode of a pending store is not an entry's, nor another pending store's *)
Lemma entry_ino_not_pending {s k w k' i} :
  Inv File s -> aget k (s_wr s) = Some w -> aget (nkey k') (s_fs s) = Some i -> i <> w_ino w.
Proof.
  intros I W F ->. apply (nkey_ntmp k' k). exact (i_inj I F (i_f3 I eq_refl W)).
Qed.

Lemma pending_ino_inj {s k w k' w'} :
  Inv File s -> aget k (s_wr s) = Some w -> aget k' (s_wr s) = Some w' -> w_ino w = w_ino w' -> k = k'.
Proof.
  intros I W W' E. apply ntmp_inj. apply (i_inj I (i := w_ino w)); [|rewrite E]; apply (i_f3 I eq_refl); assumption.
Qed.

(* what a removal never touches: it unlinks a name and drops an entry, the inode stays for the handles on it *)
Record untouched (s s' : st) : Prop := {
  u_wr : s_wr s' = s_wr s; u_ino : s_ino s' = s_ino s; u_hs : s_hs s' = s_hs s; u_ni : s_ni s' = s_ni s }.

Lemma untouched_refl s : untouched s s.
Proof. constructor; reflexivity. Qed.

Lemma untouched_trans s1 s2 s3 : untouched s1 s2 -> untouched s2 s3 -> untouched s1 s3.
Proof. intros [] []. constructor; congruence. Qed.

(* Both backends remove an entry the same way: the memory backend has no files, and in the
   file backend the entry is there iff its file is, with the size the entry records. *)
Lemma remove_entry_eq b s k :
  Inv b s -> fst (remove_entry b s k) = match aget k (s_ents s) with Some e => removed s k e | None => s end.
Proof.
  intros I. unfold remove_entry. destruct b.
  - destruct (aget k (s_ents s)) as [e|]; [|reflexivity].
    destruct (i_mem I eq_refl) as [_ FS]. clear I. destruct s. cbn in *. rewrite FS. reflexivity.
  - destruct (aget (nkey k) (s_fs s)) as [i|] eqn:F.
    + destruct (file_entry_of_name _ _ _ I F) as (e & -> & ->). reflexivity.
    + destruct (aget k (s_ents s)) as [e|] eqn:E.
      * destruct (i_f1 I eq_refl E) as (i & F' & _). congruence.
      * prj. rewrite (adel_notin _ _ E). destruct s; reflexivity.
Qed.

Lemma removed_inv b s k e : Inv b s -> aget k (s_ents s) = Some e -> Inv b (removed s k e).
Proof.
  intros I E. constructor; prj; try apply I.
  - apply NoDup_adel, I.
  - apply NoDup_adel, I.
  - rewrite asum_adel, E by apply I. cbn [oget]. rewrite (i_bs I). lia.
  - rewrite zlen_adel, E by apply I. cbn [ocount]. rewrite (i_me I). lia.
  - rewrite (i_mb I). reflexivity.
  - intros Hb. destruct (i_mem I Hb) as [M FS]. split; [|rewrite FS; reflexivity].
    intros k' e'. amap. zeq; [discriminate|apply M].
  - intros Hb k' e'. amap. destruct (k' =? k); [discriminate|apply (i_f1 I Hb)].
  - intros n i. amap. destruct (n =? nkey k) eqn:N; [discriminate|]. intros H.
    destruct (i_f2 I H) as [(k0 & e0 & -> & B)|R]; [left|right; exact R].
    exists k0, e0. amap. rewrite eqb_nkey in N. rewrite N. auto.
  - intros Hb k' w. amap. apply (i_f3 I Hb).
  - intros n n' i. amap. zeq; try discriminate. apply I.
  - intros n i. amap. zeq; [discriminate|apply I].
Qed.

Lemma current_removed b s k e x : current b (removed s k e) x = if x =? k then None else current b s x.
Proof. unfold current, get_data. prj. amap. destruct (x =? k); reflexivity. Qed.

Lemma try_remove_spec b s k :
  Inv b s ->
  let s' := try_remove b s k in
  Inv b s' /\ untouched s s' /\
  forall x, current b s' x = if (x =? k) && negb (pending s k) then None else current b s x.
Proof.
  intros I. unfold try_remove. destruct (pending s k); cbn [negb].
  - split; [exact I|]. split; [apply untouched_refl|]. intros x. rewrite andb_false_r. reflexivity.
  - rewrite remove_entry_eq by exact I. destruct (aget k (s_ents s)) as [e|] eqn:E.
    + split; [exact (removed_inv b s k e I E)|]. split; [constructor; reflexivity|].
      intros x. rewrite andb_true_r. apply current_removed.
    + split; [exact I|]. split; [apply untouched_refl|]. intros x. rewrite andb_true_r.
      destruct (Z.eqb_spec x k); [subst; unfold current; rewrite E|]; reflexivity.
Qed.

Lemma remove_all_spec b ks : forall s,
  Inv b s ->
  let s' := remove_all b s ks in
  Inv b s' /\ untouched s s' /\
  forall x, current b s' x = if existsb (fun k => (x =? k) && negb (pending s k)) ks then None else current b s x.
Proof.
  unfold remove_all. induction ks as [|k r IH]; intros s I; cbn [fold_left existsb].
  - split; [exact I|]. split; [apply untouched_refl|reflexivity].
  - destruct (try_remove_spec b s k I) as (I1 & U1 & C1). destruct (IH _ I1) as (I2 & U2 & C2).
    split; [exact I2|]. split; [exact (untouched_trans _ _ _ U1 U2)|].
    intros x. rewrite C2, C1. unfold pending. rewrite (u_wr _ _ U1).
    destruct ((x =? k) && _); [destruct (existsb _ r)|]; reflexivity.
Qed.

Lemma remove_all_inv b s ks : Inv b s -> Inv b (remove_all b s ks).
Proof. intros I. apply remove_all_spec, I. Qed.

Lemma remove_all_untouched b s ks : Inv b s -> untouched s (remove_all b s ks).
Proof. intros I. apply remove_all_spec, I. Qed.

Lemma remove_all_pending b s ks k : Inv b s -> pending (remove_all b s ks) k = pending s k.
Proof. intros I. unfold pending. rewrite (u_wr _ _ (remove_all_untouched b s ks I)). reflexivity. Qed.

Lemma remove_all_inode b s ks i : Inv b s -> inode_bytes (remove_all b s ks) i = inode_bytes s i.
Proof. intros I. unfold inode_bytes. rewrite (u_ino _ _ (remove_all_untouched b s ks I)). reflexivity. Qed.

(* in the shape of step_current.  [P]: what the caller concludes from the key's being in the set; [Q]: its
   third case, which no removal needs *)
Lemma remove_all_current b s ks x (P Q : Prop) :
  Inv b s -> (In x ks -> P) ->
  current b (remove_all b s ks) x = current b s x \/ (current b (remove_all b s ks) x = None /\ P) \/ Q.
Proof.
  intros I HP. destruct (remove_all_spec b ks s I) as (_ & _ & C). rewrite C.
  destruct (existsb _ ks) eqn:X; [right; left|auto]. split; [reflexivity|]. apply HP.
  apply existsb_exists in X. destruct X as (k & H & E). apply andb_true_iff in E. destruct E as [E _].
  apply Z.eqb_eq in E. subst. exact H.
Qed.

Lemma remove_all_removes b s ks x :
  Inv b s -> In x ks -> pending s x = false -> current b (remove_all b s ks) x = None.
Proof.
  intros I H P. destruct (remove_all_spec b ks s I) as (_ & _ & C). rewrite C.
  replace (existsb _ ks) with true; [reflexivity|]. symmetry. apply existsb_exists.
  exists x. rewrite Z.eqb_refl, P. auto.
Qed.

(* under the invariant the janitor's [publish] changes nothing *)
Lemma evict_set_eq b s ks : Inv b s -> evict_set b s ks = remove_all b s ks.
Proof.
  intros I. unfold evict_set. pose proof (i_mb (remove_all_inv b s ks I)) as E.
  destruct (remove_all b s ks). cbn in *. rewrite E. reflexivity.
Qed.

(* Like an eviction, Delete and a cleanup cycle are removals of a key set. *)
Lemma do_delete_eq b s k :
  pending s k = false -> do_delete b s k = (remove_all b s [k], if snd (remove_entry b s k) then RUnit else RErr).
Proof.
  intros P. unfold do_delete, remove_all, try_remove. cbn [fold_left]. rewrite P.
  destruct (remove_entry b s k). reflexivity.
Qed.

Lemma do_cleanup_eq b s skip :
  Inv b s -> do_cleanup b s skip = remove_all b s (filter (fun k => negb (memb k skip)) (expired_keys s)).
Proof. apply evict_set_eq. Qed.

Lemma inode_bytes_set s i d j :
  inode_bytes (set_ino s (aset i d (s_ino s))) j = if j =? i then d else inode_bytes s j.
Proof. unfold inode_bytes. prj. rewrite aget_aset. destruct (j =? i); reflexivity. Qed.

Lemma mem_wr_inv s v : Inv Mem s -> Inv Mem (set_wr s v).
Proof.
  intros I. destruct (i_mem I eq_refl) as [_ FS].
  constructor; prj; try apply I; try discriminate. rewrite FS. discriminate.
Qed.

Lemma begun_inv b s k ex ob : Inv b s -> pending s k = false -> Inv b (begun b s k ex ob).
Proof.
  intros I P. destruct b; [apply mem_wr_inv, I|]. apply ahas_false in P.
  constructor; prj; try apply I; try discriminate.
  - apply NoDup_aset, I.
  - intros _ k' e H. destruct (i_f1 I eq_refl H) as (i & A & B). exists i. amap. split; [exact A|].
    pose proof (i_lt_fs I A). unfold inode_bytes in *. prj. amap. zeq; [lia|exact B].
  - intros n i. amap. zeq.
    + intros [= <-]. right. exists k, {| w_buf := []; w_ino := s_ni s; w_exp := ex; w_obj := ob |}. amap. rewrite Z.eqb_refl. auto.
    + intros H. destruct (i_f2 I H) as [L|(k0 & w & A & B & C)]; [left; exact L|right].
      exists k0, w. amap. zeq; [congruence|auto].
  - intros _ k' w. amap. zeq; [intros [= <-]; reflexivity|apply (i_f3 I eq_refl)].
  - intros n n' i. amap. zeq; intros H1 H2; auto.
    + injection H1 as <-. pose proof (i_lt_fs I H2). lia.
    + injection H2 as <-. pose proof (i_lt_fs I H1). lia.
    + exact (i_inj I H1 H2).
  - intros n i. amap. zeq; [intros [= <-]|intros H; pose proof (i_lt_fs I H)]; lia.
  - intros h i off sz obj H. pose proof (i_lt_h I H). lia.
  - intros _ h i off sz obj k' w H. amap. zeq.
    + intros [= <-]. cbn [w_ino]. pose proof (i_lt_h I H). lia.
    + apply (i_h_wr I eq_refl H).
Qed.

Lemma written_inv b s k w c : Inv b s -> aget k (s_wr s) = Some w -> Inv b (written b s k w c).
Proof.
  intros I W. destruct b; [apply mem_wr_inv, I|].
  constructor; prj; try apply I; try discriminate.
  intros _ k' e H. destruct (i_f1 I eq_refl H) as (i & A & B). exists i. split; [exact A|].
  rewrite inode_bytes_set. pose proof (entry_ino_not_pending I W A). zeq; [contradiction|exact B].
Qed.

Lemma aborted_inv b s k : Inv b s -> Inv b (aborted b s k).
Proof.
  intros I. destruct b; [apply mem_wr_inv, I|].
  constructor; prj; try apply I; try discriminate.
  - apply NoDup_adel, I.
  - intros _ k' e H. amap. apply (i_f1 I eq_refl H).
  - intros n i. amap. zeq; [discriminate|]. intros H.
    destruct (i_f2 I H) as [L|(k0 & w0 & A & B & C)]; [left; exact L|right].
    exists k0, w0. amap. zeq; [contradiction|auto].
  - intros _ k' w'. amap. zeq; [discriminate|apply (i_f3 I eq_refl)].
  - intros n n' i. amap. zeq; try discriminate. apply I.
  - intros n i. amap. zeq; [discriminate|apply I].
  - intros _ h i off sz obj k' w' H. amap. zeq; [discriminate|apply (i_h_wr I eq_refl H)].
Qed.

Lemma installed_mem_inv s k e : Inv Mem s -> e_size e = zlen (e_data e) -> Inv Mem (installed s k e).
Proof.
  intros I Z. destruct (i_mem I eq_refl) as [M FS].
  constructor; prj; try apply I; try discriminate.
  - apply NoDup_aset, I.
  - rewrite asum_aset by apply I. rewrite (i_bs I). lia.
  - rewrite zlen_aset by apply I. rewrite (i_me I). lia.
  - rewrite (i_mb I). reflexivity.
  - intros _. split; [|exact FS]. intros k' e'. amap. zeq; [intros [= <-]; exact Z|apply M].
  - rewrite FS. discriminate.
Qed.

(* link(2) of an inode no name refers to, as <hex k>, with the entry that describes it *)
Lemma linked_inv s k i e :
  Inv File s -> i < s_ni s -> (forall n, aget n (s_fs s) <> Some i) ->
  zlen (inode_bytes s i) = e_size e ->
  Inv File (installed (set_fs s (aset (nkey k) i (s_fs s))) k e).
Proof.
  intros I L F Z. constructor; prj; try apply I; try discriminate.
  - apply NoDup_aset, I.
  - apply NoDup_aset, I.
  - rewrite asum_aset by apply I. rewrite (i_bs I). lia.
  - rewrite zlen_aset by apply I. rewrite (i_me I). lia.
  - rewrite (i_mb I). reflexivity.
  - intros _ k' e'. amap. zeq; [intros [= <-]; eauto|apply (i_f1 I eq_refl)].
  - intros n i'. amap. zeq.
    + intros _. left. exists k, e. amap. rewrite Z.eqb_refl. auto.
    + intros H. destruct (i_f2 I H) as [(k0 & e0 & A & B)|R]; [left|right; exact R].
      exists k0. amap. destruct (k0 =? k); eauto.
  - intros _ k' w. amap. apply (i_f3 I eq_refl).
  - intros n n' i'. amap. zeq; intros H1 H2; auto.
    + injection H1 as <-. destruct (F _ H2).
    + injection H2 as <-. destruct (F _ H1).
    + exact (i_inj I H1 H2).
  - intros n i'. amap. zeq; [intros [= <-]; exact L|apply I].
Qed.

(* rename(2) = unlink the temp name, link the key's name *)
Lemma committed_inv b s k w : Inv b s -> aget k (s_wr s) = Some w -> Inv b (committed b s k w).
Proof.
  intros I W. destruct b.
  - apply installed_mem_inv; [apply mem_wr_inv, I|reflexivity].
  - pose proof (i_f3 I eq_refl W) as T.
    apply (linked_inv (aborted File s k)); prj.
    + exact (aborted_inv File s k I).
    + exact (i_lt_fs I T).
    + intros n. amap. destruct (Z.eqb_spec n (ntmp k)) as [->|N]; [discriminate|]. intros H. exact (N (i_inj I H T)).
    + reflexivity.
Qed.

(* Get's handle on an entry: its inode, if any, is the entry's file, which no pending store writes to *)
Lemma opened_inv b s k e x : Inv b s -> handle_for b s k e = Some x -> Inv b (opened s x).
Proof.
  intros I H.
  assert (Hx : forall i off sz obj, x = HFile i off sz obj -> b = File /\ aget (nkey k) (s_fs s) = Some i).
  { intros i off sz obj ->. destruct b; [discriminate|]. cbn [handle_for] in H.
    destruct (aget (nkey k) (s_fs s)) as [j|]; [|discriminate]. injection H as <-. auto. }
  constructor; prj; try apply I.
  - intros h i off sz obj. amap. zeq; [|apply I]. intros [= ->]. exact (i_lt_fs I (proj2 (Hx _ _ _ _ eq_refl))).
  - intros -> h i off sz obj k' w. amap. zeq; [|apply (i_h_wr I eq_refl)].
    intros [= ->] W. exact (entry_ino_not_pending I W (proj2 (Hx _ _ _ _ eq_refl))).
  - intros h y. amap. zeq; [lia|]. intros A. pose proof (i_h_lt I A). lia.
Qed.

(* a handle keeps its slot and its inode while its offset moves *)
Lemma moved_inv b s h x x' :
  Inv b s -> aget h (s_hs s) = Some x ->
  (forall i off sz obj, x' = HFile i off sz obj -> exists off', x = HFile i off' sz obj) ->
  Inv b (set_hs s (aset h x' (s_hs s))).
Proof.
  intros I H Hx. constructor; prj; try apply I.
  - intros h' i off sz obj. amap. zeq; [|apply I].
    intros [= ->]. destruct (Hx _ _ _ _ eq_refl) as [off' ->]. eapply (i_lt_h I); eauto.
  - intros -> h' i off sz obj k w. amap. zeq; [|apply (i_h_wr I eq_refl)].
    intros [= ->]. destruct (Hx _ _ _ _ eq_refl) as [off' ->]. eapply (i_h_wr I eq_refl); eauto.
  - intros h' z. amap. zeq; [|apply I]. intros _. eapply (i_h_lt I); eauto.
Qed.

Lemma closed_inv b s h : Inv b s -> Inv b (set_hs s (adel h (s_hs s))).
Proof.
  intros I. constructor; prj; try apply I.
  - intros h' i off sz obj. amap. zeq; [discriminate|apply I].
  - intros -> h' i off sz obj k w. amap. zeq; [discriminate|apply (i_h_wr I eq_refl)].
  - intros h' x. amap. zeq; [discriminate|apply I].
Qed.

Lemma updated_inv b s k e exp :
  Inv b s -> aget k (s_ents s) = Some e -> Inv b (set_ents s (aset k (touched e exp) (s_ents s))).
Proof.
  intros I E. constructor; prj; try apply I.
  - apply NoDup_aset, I.
  - rewrite asum_aset, E by apply I. cbn [oget touched e_size]. rewrite (i_bs I). lia.
  - rewrite zlen_aset, E by apply I. cbn [ocount]. rewrite (i_me I). lia.
  - intros Hb. destruct (i_mem I Hb) as [M FS]. split; [|exact FS].
    intros k' e'. amap. zeq; [intros [= <-]; exact (M _ _ E)|apply M].
  - intros -> k' e'. amap. zeq; [intros [= <-]; exact (i_f1 I eq_refl E)|apply (i_f1 I eq_refl)].
  - intros n i H. destruct (i_f2 I H) as [(k0 & e0 & A & B)|R]; [left|right; exact R].
    exists k0. amap. destruct (k0 =? k); eauto.
Qed.

Definition failed (o : out) : Prop := match o with RBusy | RMiss | RErr | RBadHandle => True | _ => False end.

(* the keys the eviction inside ABegin k tries to remove (in the memory backend Cache holds k's shard lock) *)
Definition begin_evicts (b : backend) (lim : Z) (s : st) (k : Z) (ev : list Z) : list Z :=
  if lim <=? s_bs s then match b with Mem => filter (fun x => negb (x =? k)) ev | File => ev end else [].

Inductive effect (lim : Z) (s : st) : backend -> act -> st -> out -> Prop :=
| ef_none b a r (Fr : failed r) : effect lim s b a s r
| ef_refuse k ex ob ev :
    effect lim s Mem (ABegin k ex ob ev) (remove_all Mem s (begin_evicts Mem lim s k ev)) RErr
| ef_begin b k ex ob ev (Pk : pending s k = false) :
    effect lim s b (ABegin k ex ob ev) (begun b (remove_all b s (begin_evicts b lim s k ev)) k (s_now s + ex) ob) RUnit
| ef_write b k c w (Wk : aget k (s_wr s) = Some w) : effect lim s b (AWrite k c) (written b s k w c) RUnit
| ef_abort b k w (Wk : aget k (s_wr s) = Some w) : effect lim s b (AAbort k) (aborted b s k) RErr
| ef_empty k w (Wk : aget k (s_wr s) = Some w) : effect lim s File (ACommit k) (aborted File s k) RErr
| ef_commit b k w x (Wk : aget k (s_wr s) = Some w)
    (Hx : handle_for b (committed b s k w) k (stored b s w) = Some x) :
    effect lim s b (ACommit k) (opened (committed b s k w) x)
      (RHandle (s_nh (committed b s k w)) (e_size (stored b s w)) (e_obj (stored b s w)) false)
| ef_get b k e x (Pk : pending s k = false) (Ek : aget k (s_ents s) = Some e) (Hx : handle_for b s k e = Some x) :
    effect lim s b (AGet k) (opened s x) (RHandle (s_nh s) (e_size e) (e_obj e) (e_exp e <? s_now s))
| ef_read_mem b h n data off size obj (Hh : aget h (s_hs s) = Some (HMem data off size obj)) :
    effect lim s b (ARead h n)
      (set_hs s (aset h (HMem data (off + zlen (chunk_of data off n)) size obj) (s_hs s)))
      (RBytes (chunk_of data off n) size obj)
| ef_read_file b h n i off size obj (Hh : aget h (s_hs s) = Some (HFile i off size obj)) :
    effect lim s b (ARead h n)
      (set_hs s (aset h (HFile i (off + zlen (chunk_of (inode_bytes s i) off n)) size obj) (s_hs s)))
      (RBytes (chunk_of (inode_bytes s i) off n) size obj)
| ef_close b h :
    effect lim s b (AClose h) match b with Mem => s | File => set_hs s (adel h (s_hs s)) end RUnit
| ef_delete b k (Pk : pending s k = false) :
    effect lim s b (ADelete k) (remove_all b s [k]) (if snd (remove_entry b s k) then RUnit else RErr)
| ef_update b k ex e (Pk : pending s k = false) (Ek : aget k (s_ents s) = Some e) :
    effect lim s b (AUpdate k ex) (set_ents s (aset k (touched e (s_now s + ex)) (s_ents s))) RUnit
| ef_advance b d : effect lim s b (AAdvance d) (set_now s (s_now s + d)) RUnit
| ef_cleanup b skip :
    effect lim s b (ACleanup skip) (remove_all b s (filter (fun k => negb (memb k skip)) (expired_keys s))) RUnit
| ef_evict b ks : effect lim s b (AEvict ks) (remove_all b s ks) RUnit
| ef_reopen b : effect lim s b AReopen (do_reopen s) RUnit.

Lemma account_store_eq s old sz :
  account_store s old sz = add_count (add_size s (sz - oget e_size old)) (1 - ocount old).
Proof. destruct s, old; unfold account_store, add_size, add_count; cbn; f_equal; lia. Qed.

(* The states are the model's own terms up to [account_store_eq] and [evict_set_eq]; the branch of
   do_begin that finds <hex k>.tmp in place is dead, by [tmp_absent]. *)
Lemma step_effect b lim s a :
  Inv b s -> effect lim s b a (fst (step b lim s a)) (snd (step b lim s a)).
Proof.
  intros I. destruct a as [k ex ob ev|k c|k|k|k|h n|h|k|k ex|d|skip|ks|]; cbn [step].
  - unfold do_begin. destruct (pending s k) eqn:P; [now apply ef_none|].
    set (s1 := remove_all b s (begin_evicts b lim s k ev)).
    assert (E : (if lim <=? s_bs s then evict_set b s (match b with Mem => filter (fun x => negb (x =? k)) ev | File => ev end) else s) = s1).
    { unfold s1, begin_evicts. destruct (lim <=? s_bs s); [apply evict_set_eq, I|reflexivity]. }
    destruct b; cbv zeta; rewrite E.
    + destruct (_ && _); [apply ef_refuse|exact (ef_begin lim s Mem k ex ob ev P)].
    + rewrite tmp_absent; [exact (ef_begin lim s File k ex ob ev P)|apply remove_all_inv, I|].
      unfold s1. rewrite remove_all_pending; assumption.
  - unfold do_write. destruct (aget k (s_wr s)) as [w|] eqn:W; [|now apply ef_none].
    destruct b; exact (ef_write lim s _ k c w W).
  - unfold do_abort. destruct (aget k (s_wr s)) as [w|] eqn:W; [|now apply ef_none].
    destruct b; exact (ef_abort lim s _ k w W).
  - unfold do_commit. destruct (aget k (s_wr s)) as [w|] eqn:W; [|now apply ef_none].
    destruct b; cbv zeta.
    + rewrite account_store_eq. exact (ef_commit lim s Mem k w _ W eq_refl).
    + destruct (_ =? 0); [exact (ef_empty lim s k w W)|]. rewrite account_store_eq.
      refine (ef_commit lim s File k w _ W _). cbn [handle_for]. prj. rewrite aget_aset_eq. reflexivity.
  - unfold do_get. destruct (pending s k) eqn:P; [now apply ef_none|].
    destruct (aget k (s_ents s)) as [e|] eqn:E; [|now apply ef_none].
    destruct b; [exact (ef_get lim s Mem k e _ P E eq_refl)|].
    destruct (aget (nkey k) (s_fs s)) as [i|] eqn:F; [|now apply ef_none].
    refine (ef_get lim s File k e _ P E _). cbn [handle_for]. rewrite F. reflexivity.
  - unfold do_read. destruct (aget h (s_hs s)) as [[data off size obj|i off size obj]|] eqn:H; [| |now apply ef_none].
    + exact (ef_read_mem lim s b h n _ _ _ _ H).
    + exact (ef_read_file lim s b h n _ _ _ _ H).
  - destruct b; apply ef_close.
  - destruct (pending s k) eqn:P; [unfold do_delete; rewrite P; now apply ef_none|].
    rewrite do_delete_eq by exact P. exact (ef_delete lim s b k P).
  - unfold do_update. destruct (pending s k) eqn:P; [now apply ef_none|].
    destruct (aget k (s_ents s)) as [e|] eqn:E; [|now apply ef_none]. exact (ef_update lim s b k ex e P E).
  - apply ef_advance.
  - rewrite do_cleanup_eq by exact I. apply ef_cleanup.
  - rewrite evict_set_eq by exact I. apply ef_evict.
  - apply ef_reopen.
Qed.

Theorem step_inv b lim s a : Inv b s -> Inv b (fst (step b lim s a)).
Proof.
  intros I. destruct (step_effect b lim s a I); try (apply remove_all_inv; exact I).
  - exact I.
  - apply begun_inv; [apply remove_all_inv, I|rewrite remove_all_pending; assumption].
  - exact (written_inv b s k w c I Wk).
  - exact (aborted_inv b s k I).
  - exact (aborted_inv File s k I).
  - exact (opened_inv b _ k _ x (committed_inv b s k w I Wk) Hx).
  - exact (opened_inv b s k e x I Hx).
  - apply (moved_inv b s h _ _ I Hh). discriminate.
  - apply (moved_inv b s h _ _ I Hh). intros ? ? ? ? [= <- _ <- <-]. eauto.
  - destruct b; [exact I|apply closed_inv, I].
  - exact (updated_inv b s k e _ I Ek).
  - constructor; prj; apply I.
  - apply reopen_inv.
Qed.

Lemma run_from_inv b lim l : forall s, Inv b s -> Inv b (run_from b lim s l).
Proof. unfold run_from. induction l as [|a r IH]; cbn [fold_left]; intros s I; [exact I|apply IH, step_inv, I]. Qed.

Theorem run_inv b lim l : Inv b (run b lim l).
Proof. apply run_from_inv, inv_init. Qed.

Lemma get_data_ok b s k e :
  Inv b s -> aget k (s_ents s) = Some e -> exists d, get_data b s k e = Some d /\ zlen d = e_size e.
Proof.
  intros I H. unfold get_data. destruct b.
  - exists (e_data e). split; auto. symmetry. apply (proj1 (i_mem I eq_refl) _ _ H).
  - destruct (i_f1 I eq_refl H) as (i & -> & B). eauto.
Qed.

Lemma in_retrievable b s x :
  In x (retrievable b s) <->
  exists k e d, In (k, e) (s_ents s) /\ get_data b s k e = Some d /\ x = (k, (d, e_size e, e_obj e)).
Proof.
  unfold retrievable. rewrite in_flat_map. split.
  - intros [[k e] [H1 H2]]. cbn [fst snd] in H2. destruct (get_data b s k e) as [d|] eqn:G; [|contradiction].
    destruct H2 as [<-|[]]. exists k, e, d. auto.
  - intros (k & e & d & H1 & H2 & ->). exists (k, e). cbn [fst snd]. rewrite H2. split; [exact H1|left; reflexivity].
Qed.

Lemma retr_sums b s l :
  (forall k e, In (k, e) l -> exists d, get_data b s k e = Some d /\ zlen d = e_size e) ->
  let r := flat_map (fun ke => match get_data b s (fst ke) (snd ke) with
                               | Some d => [(fst ke, (d, e_size (snd ke), e_obj (snd ke)))]
                               | None => []
                               end) l in
  sum_data r = asum e_size l /\ zlen r = zlen l.
Proof.
  induction l as [|[k e] r IH]; intros H; cbn [flat_map fst snd].
  - split; reflexivity.
  - destruct (H k e (or_introl eq_refl)) as (d & -> & Z).
    destruct IH as [IH1 IH2]; [intros; apply H; right; assumption|].
    cbn [app]. rewrite !zlen_cons, IH2. split; [|reflexivity].
    unfold sum_data in *. cbn [fold_right asum fst snd]. rewrite IH1. lia.
Qed.

(* C12.  The clause on the directory needs [quiescent]: the temp file of a pending store is listed too (i_f2). *)
Theorem accounting b s :
  Inv b s ->
  s_bs s = sum_data (retrievable b s) /\
  s_me s = zlen (retrievable b s) /\
  s_mb s = s_bs s /\
  (forall k d sz o, In (k, (d, sz, o)) (retrievable b s) -> sz = zlen d) /\
  (b = File -> quiescent s = true ->
     forall n sz, In (n, sz) (dir_listing s) <->
                  exists k d sz' o, n = nkey k /\ In (k, (d, sz', o)) (retrievable b s) /\ sz = zlen d) /\
  NoDup (map fst (dir_listing s)) /\
  0 <= s_bs s /\ 0 <= s_me s /\ 0 <= s_mb s.
Proof.
  intros I.
  assert (G : forall k e, In (k, e) (s_ents s) -> exists d, get_data b s k e = Some d /\ zlen d = e_size e).
  { intros k e H. exact (get_data_ok b s k e I (In_aget _ _ _ (i_nd_e I) H)). }
  destruct (retr_sums b s (s_ents s) G) as [S1 S2]. fold (retrievable b s) in S1, S2.
  assert (N : 0 <= s_bs s).
  { rewrite (i_bs I). apply asum_nonneg. intros k e H. destruct (G k e H) as (d & _ & <-). apply zlen_nonneg. }
  split; [rewrite S1; apply I|]. split; [rewrite S2; apply I|]. split; [apply I|].
  split; [|split; [|split; [|split; [exact N|split]]]].
  - intros k d sz o H. apply in_retrievable in H. destruct H as (k0 & e & d0 & H1 & H2 & [= -> -> -> _]).
    destruct (G _ _ H1) as (d' & A & B). congruence.
  - intros -> Q n sz. unfold dir_listing. rewrite in_map_iff. split.
    + intros [[n0 i] [[= -> <-] H]]. cbn [fst snd].
      pose proof (In_aget _ _ _ (i_nd_f I) H) as A.
      destruct (i_f2 I A) as [(k & e & -> & E)|(k & w & _ & W & _)].
      * exists k, (inode_bytes s i), (e_size e), (e_obj e). split; [reflexivity|]. split; [|reflexivity].
        apply in_retrievable. exists k, e, (inode_bytes s i). split; [exact (aget_In _ _ _ E)|].
        unfold get_data. rewrite A. auto.
      * unfold quiescent in Q. destruct (s_wr s); discriminate.
    + intros (k & d & sz' & o & -> & H & ->). apply in_retrievable in H.
      destruct H as (k0 & e & d0 & _ & H2 & [= -> -> _ _]).
      unfold get_data in H2. destruct (aget (nkey k0) (s_fs s)) as [i|] eqn:F; [|discriminate].
      injection H2 as <-. exists (nkey k0, i). split; [reflexivity|exact (aget_In _ _ _ F)].
  - unfold dir_listing. rewrite map_map. apply I.
  - rewrite (i_me I). apply zlen_nonneg.
  - rewrite (i_mb I). exact N.
Qed.

Theorem restart_clean b lim acts :
  let s := run b lim (acts ++ [AReopen]) in
  s_bs s = 0 /\ s_me s = 0 /\ s_mb s = 0 /\ retrievable b s = [] /\ dir_listing s = [].
Proof. unfold run, run_from. rewrite fold_left_app. cbn. auto. Qed.

(* An existing inode changes only when a chunk is written to the store that owns it. *)
Lemma inode_stable b lim s a i :
  Inv b s -> i < s_ni s ->
  (b = File -> forall k c w, a = AWrite k c -> aget k (s_wr s) = Some w -> i <> w_ino w) ->
  inode_bytes (fst (step b lim s a)) i = inode_bytes s i.
Proof.
  intros I L NW.
  (* the inode table is left alone, literally or by a removal, except by ABegin (a new inode) and AWrite *)
  destruct (step_effect b lim s a I); try reflexivity; try (apply remove_all_inode, I); try (destruct b; reflexivity).
  - rewrite <- (remove_all_inode b s (begin_evicts b lim s k ev) i I).
    destruct b; [reflexivity|]. unfold inode_bytes. prj. rewrite aget_aset.
    rewrite (u_ni _ _ (remove_all_untouched _ _ _ I)). zeq; [lia|reflexivity].
  - destruct b; [reflexivity|]. prj. rewrite inode_bytes_set. zeq; [|reflexivity]. destruct (NW eq_refl k c w eq_refl Wk eq_refl).
Qed.

Lemma hs_stable b lim s a h :
  Inv b s -> h < s_nh s -> reads_handle h a = false -> ends_handle h a = false ->
  aget h (s_hs (fst (step b lim s a))) = aget h (s_hs s).
Proof.
  intros I L R E.
  (* the handle table is left alone, literally or by a removal; Get and a commit add the handle s_nh s,
     a read or a close changes the handle it names; a restart is excluded *)
  destruct (step_effect b lim s a I); cbn [reads_handle ends_handle] in *; try reflexivity;
    try (rewrite (u_hs _ _ (remove_all_untouched _ _ _ I)); reflexivity); try (destruct b; reflexivity); try discriminate.
  - (* ef_begin *) destruct b; prj; rewrite (u_hs _ _ (remove_all_untouched _ _ _ I)); reflexivity.
  - (* ef_commit *) destruct b; prj; rewrite aget_aset; zeq; (lia || reflexivity).
  - (* ef_get *) prj. rewrite aget_aset. zeq; [lia|reflexivity].
  - (* ef_read_mem *) prj. rewrite aget_aset, Z.eqb_sym, R. reflexivity.
  - (* ef_read_file *) prj. rewrite aget_aset, Z.eqb_sym, R. reflexivity.
  - (* ef_close *) destruct b; [reflexivity|]. prj. rewrite aget_adel, Z.eqb_sym, E. reflexivity.
Qed.

(* Nothing but a read through h, closing h or a restart changes what h will still deliver. *)
Theorem hview_stable b lim s a h v :
  Inv b s -> hview s h = Some v -> reads_handle h a = false -> ends_handle h a = false ->
  hview (fst (step b lim s a)) h = Some v.
Proof.
  intros I V R E. unfold hview in *.
  destruct (aget h (s_hs s)) as [x|] eqn:H; [|discriminate].
  rewrite (hs_stable b lim s a h I (i_h_lt I H) R E), H.
  destruct x as [data off sz ob|i off sz ob]; [exact V|].
  rewrite (inode_stable b lim s a i I); [exact V|exact (i_lt_h I H)|].
  intros Hb k c w _ W. exact (i_h_wr I Hb H W).
Qed.

Definition hoff (x : hdl) : Z := match x with HMem _ off _ _ => off | HFile _ off _ _ => off end.

(* [hview] is what h will still deliver only while its offset is not negative: [zskipn] treats a negative
   offset as 0, an addition does not. *)
Definition live (s : st) (h : Z) (v : list Z * Z * Z) : Prop :=
  hview s h = Some v /\ forall x, aget h (s_hs s) = Some x -> 0 <= hoff x.

Lemma live_stable b lim s a h v :
  Inv b s -> live s h v -> reads_handle h a = false -> ends_handle h a = false -> live (fst (step b lim s a)) h v.
Proof.
  intros I [V P] R E. split; [exact (hview_stable b lim s a h v I V R E)|].
  unfold hview in V. destruct (aget h (s_hs s)) as [x|] eqn:H; [|discriminate].
  rewrite (hs_stable b lim s a h I (i_h_lt I H) R E), H. exact P.
Qed.

(* a read moves the offset past the chunk it returns *)
Lemma chunk_skipped data off n : 0 <= off ->
  zskipn (off + zlen (chunk_of data off n)) data = zskipn n (zskipn off data) /\ 0 <= off + zlen (chunk_of data off n).
Proof.
  intros P. pose proof (zlen_nonneg (chunk_of data off n)). split; [|lia].
  unfold chunk_of in *. rewrite zskipn_add, zskipn_zfirstn by assumption. reflexivity.
Qed.

Theorem read_spec s h n rem sz o :
  live s h (rem, sz, o) ->
  snd (do_read s h n) = RBytes (zfirstn n rem) sz o /\
  live (fst (do_read s h n)) h (zskipn n rem, sz, o).
Proof.
  intros [V P]. unfold live, hview in *. unfold do_read.
  destruct (aget h (s_hs s)) as [x|] eqn:H; [|discriminate]. specialize (P x eq_refl).
  destruct x as [data off sz' o'|i off sz' o']; injection V as <- <- <-; cbn [hoff] in P; prj; rewrite aget_aset_eq.
  - (* memory handle *) destruct (chunk_skipped data off n P) as [-> N].
    split; [reflexivity|split; [reflexivity|]]. intros x [= <-]. exact N.
  - (* file handle; the read leaves the inodes alone *) change (inode_bytes (set_hs s _) i) with (inode_bytes s i).
    destruct (chunk_skipped (inode_bytes s i) off n P) as [-> N].
    split; [reflexivity|split; [reflexivity|]]. intros x [= <-]. exact N.
Qed.

(* Opening the entry of k: the handle delivers the current version of k from its start. *)
Lemma opened_spec b s k e x :
  Inv b s -> aget k (s_ents s) = Some e -> handle_for b s k e = Some x ->
  exists d, get_data b s k e = Some d /\ e_size e = zlen d /\
            live (opened s x) (s_nh s) (d, e_size e, e_obj e).
Proof.
  intros I E H. destruct (get_data_ok _ _ _ _ I E) as (d & G & Z). exists d. split; [exact G|]. split; [auto|].
  unfold live, hview. prj. rewrite aget_aset_eq.
  destruct b; cbn [handle_for get_data] in *.
  - injection H as <-. injection G as <-. split; [reflexivity|]. intros x [= <-]. reflexivity.
  - destruct (aget (nkey k) (s_fs s)) as [i|]; [|discriminate]. injection H as <-. injection G as <-.
    split; [reflexivity|]. intros x [= <-]. reflexivity.
Qed.

Lemma current_opened b s x k : current b (opened s x) k = current b s k.
Proof. reflexivity. Qed.

Lemma committed_body b s k w :
  aget k (s_wr s) = Some w ->
  exists d, pending_body b s k = Some (d, e_obj (stored b s w)) /\
            get_data b (committed b s k w) k (stored b s w) = Some d /\
            aget k (s_ents (committed b s k w)) = Some (stored b s w).
Proof.
  intros W. unfold pending_body. rewrite W.
  destruct b; prj; rewrite aget_aset_eq; cbn [get_data]; [eauto|].
  prj. rewrite aget_aset_eq. eauto.
Qed.

(* Only Get and a completed store hand out handles; the handle delivers, from its start, the version
   that is then current: the one Get found, or the body the store received. *)
Lemma handle_origin {b lim s a s' h sz o st} :
  Inv b s -> step b lim s a = (s', RHandle h sz o st) ->
  exists k body,
    (a = AGet k \/ a = ACommit k) /\ opened_version b s a = Some (body, o) /\ sz = zlen body /\
    current b s' k = Some (body, sz, o) /\ live s' h (body, sz, o).
Proof.
  intros I S. pose proof (step_effect b lim s a I) as E. rewrite S in E. cbn [fst snd] in E.
  remember (RHandle h sz o st) as out eqn:R. destruct E; try discriminate R.
  - subst r. contradiction.
  - injection R as <- <- <- <-. exists k. destruct (committed_body b s k w Wk) as (d & P & G & A).
    destruct (opened_spec b _ k _ x (committed_inv b s k w I Wk) A Hx) as (d' & G' & Z & L).
    rewrite G in G'. injection G' as <-. exists d. cbn [opened_version]. rewrite current_opened. unfold current. rewrite A, G.
    auto 6.
  - injection R as <- <- <- <-. exists k. destruct (opened_spec b s k e x I Ek Hx) as (d & G & Z & L).
    exists d. cbn [opened_version]. rewrite current_opened. unfold current. rewrite Ek, G. auto 6.
  - destruct (snd _); discriminate.
Qed.

Lemma requested_nonneg h acts : 0 <= requested h acts.
Proof.
  induction acts as [|a r IH]; cbn [requested]; [reflexivity|]. apply Z.add_nonneg_nonneg; [|exact IH].
  destruct a; try reflexivity. destruct (_ =? h); [apply Z.le_max_l|reflexivity].
Qed.

Theorem handle_trace b lim h sz o acts : forall s rem,
  Inv b s -> live s h (rem, sz, o) -> keeps_handle h acts = true ->
  concat (chunks_read h acts (outs_from b lim s acts)) = zfirstn (requested h acts) rem /\
  read_metas h sz o acts (outs_from b lim s acts).
Proof.
  induction acts as [|a r IH]; intros s rem I V K.
  - cbn. split; auto.
  - cbn [keeps_handle forallb] in K. apply andb_true_iff in K. destruct K as [K1 K2].
    apply negb_true_iff in K1. cbn [outs_from chunks_read read_metas requested].
    pose proof (step_inv b lim s a I) as I1.
    destruct (reads_handle h a) eqn:R.
    + destruct a as [| | | | |h' n| | | | | | |]; try discriminate R. apply Z.eqb_eq in R. subst h'. cbn [step] in *.
      destruct (read_spec s h n rem sz o V) as [R1 R2]. destruct (do_read s h n) as [s1 x]. cbn [fst snd] in *. subst x.
      destruct (IH s1 _ I1 R2 K2) as [C M]. rewrite Z.eqb_refl. split.
      * cbn [concat app]. rewrite C. symmetry. apply zfirstn_add, requested_nonneg.
      * split; [eauto|exact M].
    + pose proof (live_stable b lim s a h _ I V R K1) as V1. destruct (step b lim s a) as [s1 x]. cbn [fst] in *.
      destruct (IH s1 _ I1 V1 K2) as [C M]. split.
      * cbn [app]. rewrite C. destruct a; try reflexivity. cbn [reads_handle] in R. rewrite R. reflexivity.
      * split; [intros; discriminate|exact M].
Qed.

(* A handle, however obtained and whatever happens afterwards short of closing it, delivers the version
   that was current when it was opened. *)
Theorem handle_integrity b lim s : Inv b s -> forall a s1 h sz o st acts,
  step b lim s a = (s1, RHandle h sz o st) ->
  keeps_handle h acts = true ->
  exists body,
    opened_version b s a = Some (body, o) /\
    sz = zlen body /\
    concat (chunks_read h acts (outs_from b lim s1 acts)) = zfirstn (requested h acts) body /\
    read_metas h sz o acts (outs_from b lim s1 acts).
Proof.
  intros I a s1 h sz o st acts S K.
  pose proof (step_inv b lim s a I) as I1. rewrite S in I1.
  destruct (handle_origin I S) as (k & d & _ & O & Z & _ & L).
  exists d. split; [exact O|]. split; [exact Z|]. exact (handle_trace b lim h sz o acts s1 d I1 L K).
Qed.

Lemma current_ext b s s' k :
  aget k (s_ents s') = aget k (s_ents s) ->
  aget (nkey k) (s_fs s') = aget (nkey k) (s_fs s) ->
  (forall i, aget (nkey k) (s_fs s) = Some i -> inode_bytes s' i = inode_bytes s i) ->
  current b s' k = current b s k.
Proof.
  intros A B C. unfold current, get_data. rewrite A. destruct (aget k (s_ents s)); [|reflexivity].
  destruct b; [reflexivity|]. rewrite B. destruct (aget (nkey k) (s_fs s)) as [i|] eqn:F; [|reflexivity].
  rewrite (C i eq_refl). reflexivity.
Qed.

Lemma begin_evicts_incl b lim s k ev x : In x (begin_evicts b lim s k ev) -> In x ev.
Proof.
  unfold begin_evicts. destruct (lim <=? s_bs s); [|intros []]. destruct b; [|auto]. intros H. apply filter_In in H. tauto.
Qed.

Lemma begun_current b s k' ex ob k : Inv b s -> current b (begun b s k' ex ob) k = current b s k.
Proof.
  intros I. destruct b; [reflexivity|]. apply current_ext; prj; [reflexivity|amap; reflexivity|].
  intros i F. pose proof (i_lt_fs I F). unfold inode_bytes. prj. rewrite aget_aset. zeq; [lia|reflexivity].
Qed.

(* the keys whose current version an action may remove *)
Definition may_remove (k : Z) (a : act) : Prop :=
  match a with
  | ABegin _ _ _ ev => In k ev
  | ADelete k' => k = k'
  | ACleanup _ | AEvict _ | AReopen => True
  | _ => False
  end.

(* The current version of a key changes only by a completed store to that key; any other action
   leaves it alone or removes it, and removes only what it names. *)
Theorem step_current b lim s a x :
  Inv b s ->
  let s' := fst (step b lim s a) in
  current b s' x = current b s x \/ (current b s' x = None /\ may_remove x a) \/
  (a = ACommit x /\ exists h sz o st, snd (step b lim s a) = RHandle h sz o st).
Proof.
  intros I s'. subst s'.
  assert (St : forall i, aget (nkey x) (s_fs s) = Some i -> inode_bytes (fst (step b lim s a)) i = inode_bytes s i).
  { intros i F. apply inode_stable; [exact I|exact (i_lt_fs I F)|].
    intros -> k' c w _ W. exact (entry_ino_not_pending I W F). }
  revert St. destruct (step_effect b lim s a I); intros St; cbn [may_remove]; try (left; reflexivity).
  - (* refused store: only its eviction happened *)
    apply remove_all_current; [exact I|apply begin_evicts_incl].
  - rewrite begun_current by apply remove_all_inv, I.
    apply remove_all_current; [exact I|apply begin_evicts_incl].
  - (* write, abort, refused empty commit: entries and their names are not touched *)
    left. apply current_ext; [destruct b; reflexivity..|exact St].
  - left. apply current_ext; [destruct b; reflexivity|destruct b; prj; amap; reflexivity|exact St].
  - left. apply current_ext; [reflexivity|prj; amap; reflexivity|exact St].
  - (* a completed store: to x itself, or to another key *)
    destruct (Z.eqb_spec k x) as [->|N]; [right; right; eauto 6|].
    left. apply current_ext; [..|exact St]; clear St Hx; destruct b; prj; amap; zeq; congruence.
  - (* close *) left. destruct b; reflexivity.
  - (* delete *) apply remove_all_current; [exact I|]. intros [->|[]]. reflexivity.
  - (* update: the expiry instant is not part of a version *)
    left. unfold current, get_data. prj. amap. zeq; [rewrite Ek|]; reflexivity.
  - (* cleanup *) apply remove_all_current; auto.
  - (* eviction *) apply remove_all_current; auto.
  - (* restart *) right. left. split; [reflexivity|exact Logic.I].
Qed.

(* An action addressed to k reaches another key in one way only: beginning a store evicts the keys [ev] it is
   given, hence the last hypothesis. *)
Theorem keys_independent b lim s a k k' :
  Inv b s -> key_of a = Some k -> k' <> k ->
  (forall ex ob ev, a = ABegin k ex ob ev -> ~ In k' ev) ->
  current b (fst (step b lim s a)) k' = current b s k'.
Proof.
  intros I K N E. destruct (step_current b lim s a k' I) as [H|[[_ H]|[-> _]]]; [exact H| |cbn [key_of] in K; congruence].
  destruct a; try discriminate K; injection K as ->; cbn [may_remove] in H; try contradiction.
  destruct (E _ _ _ eq_refl H).
Qed.

Theorem delete_removes b lim s k :
  Inv b s -> pending s k = false -> current b (fst (step b lim s (ADelete k))) k = None.
Proof. intros I P. cbn [step]. rewrite do_delete_eq by exact P. apply remove_all_removes; [exact I|left; reflexivity|exact P]. Qed.

Theorem evict_removes b lim s ks k :
  Inv b s -> In k ks -> pending s k = false -> current b (fst (step b lim s (AEvict ks))) k = None.
Proof. intros I H P. cbn [step fst]. rewrite evict_set_eq by exact I. apply remove_all_removes; assumption. Qed.

Theorem cleanup_removes b lim s skip k e :
  Inv b s -> aget k (s_ents s) = Some e -> e_exp e < s_now s -> memb k skip = false -> pending s k = false ->
  current b (fst (step b lim s (ACleanup skip))) k = None.
Proof.
  intros I E X M P. cbn [step fst]. rewrite do_cleanup_eq by exact I. apply remove_all_removes; [exact I| |exact P].
  apply filter_In. split; [|rewrite M; reflexivity].
  apply in_map_iff. exists (k, e). split; [reflexivity|]. apply filter_In. split; [exact (aget_In _ _ _ E)|].
  apply Z.ltb_lt. exact X.
Qed.

Theorem reopen_removes b lim s k : current b (fst (step b lim s AReopen)) k = None.
Proof. reflexivity. Qed.

(* only a completed store makes a key (re)appear *)
Lemma current_run b lim k acts : forall s v,
  Inv b s -> no_commit k acts = true ->
  (current b s k = v \/ current b s k = None) ->
  (current b (run_from b lim s acts) k = v \/ current b (run_from b lim s acts) k = None).
Proof.
  unfold run_from. induction acts as [|a r IH]; cbn [fold_left no_commit forallb]; intros s v I N C; [exact C|].
  apply andb_true_iff in N. destruct N as [N1 N2]. apply negb_true_iff in N1.
  apply IH; [apply step_inv, I|exact N2|].
  destruct (step_current b lim s a k I) as [H|[[H _]|[-> _]]]; [rewrite H; exact C|auto|].
  cbn [commits_key] in N1. rewrite Z.eqb_refl in N1. discriminate.
Qed.

Theorem get_miss b s k :
  Inv b s -> pending s k = false -> current b s k = None -> snd (do_get b s k) = RMiss.
Proof.
  intros I P C. unfold do_get. rewrite P. unfold current in C.
  destruct (aget k (s_ents s)) as [e|] eqn:E; [|reflexivity].
  destruct (get_data_ok _ _ _ _ I E) as [d [G _]]. rewrite G in C. discriminate.
Qed.

Theorem no_resurrection b lim s k acts h sz o st :
  Inv b s -> current b s k = None -> no_commit k acts = true ->
  snd (step b lim (run_from b lim s acts) (AGet k)) <> RHandle h sz o st.
Proof.
  intros I C N H. destruct (step b lim (run_from b lim s acts) (AGet k)) as [s' x] eqn:G. cbn [snd] in H. subst x.
  destruct (handle_origin (run_from_inv b lim acts s I) G) as (k' & d & _ & V & _).
  cbn [opened_version] in V. destruct (current_run b lim k acts s None I N (or_introl C)) as [X|X]; rewrite X in V; discriminate.
Qed.

(* After a completed store to k and until the next one, Get serves the body that store received, with its
   size and origin: never the version it replaced. *)
Theorem replaced_not_served b lim s k s1 h sz o st acts s2 h2 sz2 o2 st2 :
  Inv b s -> step b lim s (ACommit k) = (s1, RHandle h sz o st) -> no_commit k acts = true ->
  step b lim (run_from b lim s1 acts) (AGet k) = (s2, RHandle h2 sz2 o2 st2) ->
  exists d, pending_body b s k = Some (d, o) /\ hview s2 h2 = Some (d, sz, o) /\ sz2 = sz /\ o2 = o.
Proof.
  intros I C N G.
  pose proof (step_inv b lim s (ACommit k) I) as I1. rewrite C in I1. cbn [fst] in I1.
  destruct (handle_origin I C) as (k1 & d & [[=]|[= <-]] & P & Z & Cu & _).
  destruct (handle_origin (run_from_inv b lim acts s1 I1) G) as (k2 & d2 & [[= <-]|[=]] & Y & Z2 & _ & V & _).
  cbn [opened_version] in *.
  destruct (current_run b lim k acts s1 _ I1 N (or_introl Cu)) as [X|X]; rewrite X in Y; [|discriminate].
  injection Y as <- <-. exists d. subst. auto.
Qed.

Lemma pending_body_ext b s s' k :
  aget k (s_wr s') = aget k (s_wr s) ->
  (b = File -> forall w, aget k (s_wr s) = Some w -> inode_bytes s' (w_ino w) = inode_bytes s (w_ino w)) ->
  pending_body b s' k = pending_body b s k.
Proof.
  intros A B. unfold pending_body. rewrite A. destruct (aget k (s_wr s)) as [w|]; [|reflexivity].
  destruct b; [reflexivity|]. rewrite (B eq_refl w eq_refl). reflexivity.
Qed.

(* the two cases of pending_body_step: a is a write to k, or it adds nothing to the body of k, not even as a
   write of the empty chunk (the last conjunct: in that case no write to k is left to consider) *)
Lemma written_to_one k a :
  (exists c, a = AWrite k c) \/ written_to k [a] = [] /\ forall c, a <> AWrite k c.
Proof.
  destruct a as [|k' c| | | | | | | | | | |]; try (right; split; [reflexivity|discriminate]). cbn [written_to].
  destruct (Z.eqb_spec k' k) as [->|N]; [eauto|]. right. split; [reflexivity|congruence].
Qed.

Lemma pending_body_step b lim s a k bd ob :
  Inv b s -> pending_body b s k = Some (bd, ob) -> ends_store k a = false ->
  pending_body b (fst (step b lim s a)) k = Some (bd ++ written_to k [a], ob).
Proof.
  intros I P E. destruct (written_to_one k a) as [[c ->]|[-> NW]].
  - cbn [step written_to]. rewrite Z.eqb_refl, app_nil_r. unfold do_write, pending_body in *.
    destruct (aget k (s_wr s)) as [w|] eqn:W; [|discriminate]. injection P as <- <-.
    destruct b; prj; [rewrite aget_aset_eq|rewrite W, inode_bytes_set, Z.eqb_refl]; reflexivity.
  - rewrite app_nil_r, <- P. assert (PK : pending s k = true).
    { apply ahas_true. unfold pending_body in P. destruct (aget k (s_wr s)) as [w|]; [eauto|discriminate]. }
    apply pending_body_ext.
    + destruct (step_effect b lim s a I); cbn [ends_store] in E; try reflexivity;
        try (rewrite (u_wr _ _ (remove_all_untouched _ _ _ I)); reflexivity); try discriminate E.
      * (* ef_begin: of another key, the store to k being pending *)
        destruct b; prj; rewrite aget_aset, (u_wr _ _ (remove_all_untouched _ _ _ I)); zeq; congruence.
      * (* ef_write *) destruct b; [|reflexivity]. prj. rewrite aget_aset. zeq; [destruct (NW c eq_refl)|reflexivity].
      * (* ef_abort *) destruct b; prj; rewrite aget_adel, Z.eqb_sym, E; reflexivity.
      * (* ef_empty *) prj. rewrite aget_adel, Z.eqb_sym, E. reflexivity.
      * (* ef_commit *) destruct b; prj; rewrite aget_adel, Z.eqb_sym, E; reflexivity.
      * (* ef_close *) destruct b; reflexivity.
    + intros -> w W. apply inode_stable; [exact I|exact (i_lt_fs I (i_f3 I eq_refl W))|].
      intros _ k' c w' -> W' Q. apply (NW c). f_equal. symmetry. exact (pending_ino_inj I W W' Q).
Qed.

Lemma written_to_cons k a r : written_to k (a :: r) = written_to k [a] ++ written_to k r.
Proof. destruct a; cbn [written_to]; rewrite ?app_nil_r; reflexivity. Qed.

Lemma store_trace b lim k acts : forall s bd ob,
  Inv b s -> pending_body b s k = Some (bd, ob) -> forallb (fun a => negb (ends_store k a)) acts = true ->
  pending_body b (run_from b lim s acts) k = Some (bd ++ written_to k acts, ob).
Proof.
  unfold run_from. induction acts as [|a r IH]; intros s bd ob I P E.
  - cbn. rewrite app_nil_r. exact P.
  - cbn [forallb] in E. apply andb_true_iff in E. destruct E as [E1 E2]. apply negb_true_iff in E1.
    cbn [fold_left]. rewrite (IH _ (bd ++ written_to k [a]) ob); [|apply step_inv, I|apply pending_body_step; auto|exact E2].
    rewrite (written_to_cons k a r), app_assoc. reflexivity.
Qed.

Lemma begin_spec {b lim s k ex ob ev s1} :
  Inv b s -> step b lim s (ABegin k ex ob ev) = (s1, RUnit) -> pending_body b s1 k = Some ([], ob).
Proof.
  intros I S. pose proof (step_effect b lim s (ABegin k ex ob ev) I) as E. rewrite S in E. cbn [fst snd] in E.
  inversion E; subst; [contradiction|].
  unfold pending_body. destruct b; prj; rewrite aget_aset_eq; [reflexivity|].
  unfold inode_bytes. prj. rewrite aget_aset_eq. reflexivity.
Qed.

(* begin ... commit: the published version is the concatenation of the chunks the source delivered *)
Theorem store_complete b lim s k ex ob ev s1 acts s2 h sz o st :
  Inv b s -> step b lim s (ABegin k ex ob ev) = (s1, RUnit) ->
  forallb (fun a => negb (ends_store k a)) acts = true ->
  step b lim (run_from b lim s1 acts) (ACommit k) = (s2, RHandle h sz o st) ->
  current b s2 k = Some (written_to k acts, sz, ob) /\ hview s2 h = Some (written_to k acts, sz, ob) /\
  sz = zlen (written_to k acts) /\ o = ob.
Proof.
  intros I B E C.
  pose proof (step_inv b lim s (ABegin k ex ob ev) I) as I1. rewrite B in I1. cbn [fst] in I1.
  pose proof (store_trace b lim k acts s1 [] ob I1 (begin_spec I B) E) as P.
  destruct (handle_origin (run_from_inv b lim acts s1 I1) C) as (k' & d & [[=]|[= <-]] & Q & Z & Cu & V & _).
  cbn [opened_version app] in *. rewrite P in Q. injection Q as <- <-. auto.
Qed.
