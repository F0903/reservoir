(* Proofs about the configuration transaction (Model/ConfigTxn.v):
     - a refused update changes nothing (for every document, map order, write-fault point);
     - an accepted update changes exactly the addressed settings, tells exactly their listeners,
       leaves a file that the next start loads with the same values, keeps the process alive;
     - what verify accepts, the consumers can run under;
     - no document makes the update panic;
     - every reachable state of a running process keeps "the file is what the next start loads".
   The state after a fold of point updates is read at one index: stage_all and discard_all through app_at,
   the commits through commit_one_at.  The walk is specified against [targets], the settings a document
   addresses. *)
From Coq Require Import String Ascii.
From Reservoir Require Import Base.Prelude Model.ByteSize Proofs.ByteSize Model.ConfigProp Proofs.ConfigProp Model.ConfigTxn.
Open Scope Z_scope.

Lemma nth_error_aligned {A B} (l1 : list A) (l2 : list B) i x :
  length l2 = length l1 -> nth_error l1 i = Some x -> exists y, nth_error l2 i = Some y.
Proof.
  intros Hl Hx. destruct (nth_error l2 i) eqn:E; [eauto|]. apply nth_error_None in E.
  assert (H : nth_error l1 i <> None) by congruence. apply nth_error_Some in H. lia.
Qed.

Lemma nth_error_upd_nth {A} (g : A -> A) (l : list A) : forall i j,
  nth_error (upd_nth i g l) j = if Nat.eqb i j then option_map g (nth_error l j) else nth_error l j.
Proof.
  induction l as [|x l IH]; intros i j.
  - destruct i, j; cbn; try reflexivity; destruct (Nat.eqb _ _); reflexivity.
  - destruct i as [|i], j as [|j]; cbn; try reflexivity. apply IH.
Qed.

Lemma length_upd_nth {A} (g : A -> A) (l : list A) i : length (upd_nth i g l) = length l.
Proof. revert i. induction l as [|x l IH]; intros [|i]; cbn; auto. Qed.

Lemma map_upd_nth_same {A B} (h : A -> B) (g : A -> A) i l :
  (forall x, h (g x) = h x) -> map h (upd_nth i g l) = map h l.
Proof. intros Hg. revert i. induction l as [|x l IH]; intros [|i]; cbn; congruence. Qed.

Lemma Forall_upd_nth {A} (P : A -> Prop) (g : A -> A) i l :
  (forall x, P x -> P (g x)) -> Forall P l -> Forall P (upd_nth i g l).
Proof. intros Hg H. revert i. induction H; intros [|i]; cbn; auto. Qed.

(* a fold of point updates, read at one index *)
Definition app_at {A B} (G : B -> A -> A) (j : nat) (l : list (nat * B)) (p : A) : A :=
  fold_left (fun p iv => if Nat.eqb (fst iv) j then G (snd iv) p else p) l p.

Lemma app_at_cons {A B} (G : B -> A -> A) j i b l p :
  app_at G j ((i, b) :: l) p = app_at G j l (if Nat.eqb i j then G b p else p).
Proof. reflexivity. Qed.

Lemma nth_error_fold_upd {A B} (G : B -> A -> A) (l : list (nat * B)) : forall (ps : list A) j,
  nth_error (fold_left (fun ps iv => upd_nth (fst iv) (G (snd iv)) ps) l ps) j
  = option_map (app_at G j l) (nth_error ps j).
Proof.
  induction l as [|[i b] l IH]; intros ps j; cbn.
  - destruct (nth_error ps j); reflexivity.
  - rewrite IH, nth_error_upd_nth.
    destruct (Nat.eqb i j) eqn:E; destruct (nth_error ps j); cbn; rewrite ?app_at_cons, ?E; reflexivity.
Qed.

Lemma length_fold_upd {A B} (G : B -> A -> A) (l : list (nat * B)) : forall (ps : list A),
  length (fold_left (fun ps iv => upd_nth (fst iv) (G (snd iv)) ps) l ps) = length ps.
Proof. induction l as [|[i b] l IH]; intros ps; cbn; [reflexivity|]. rewrite IH. apply length_upd_nth. Qed.

Lemma app_at_none {A B} (G : B -> A -> A) j (l : list (nat * B)) : forall p,
  ~ In j (map fst l) -> app_at G j l p = p.
Proof.
  induction l as [|[i b] l IH]; intros p H; [reflexivity|].
  rewrite app_at_cons. cbn in H. destruct (Nat.eqb i j) eqn:E.
  - apply Nat.eqb_eq in E. tauto.
  - apply IH. tauto.
Qed.

Lemma app_at_unique {A B} (G : B -> A -> A) j (l : list (nat * B)) x : forall p,
  NoDup (map fst l) -> In (j, x) l -> app_at G j l p = G x p.
Proof.
  induction l as [|[i b] l IH]; intros p Hnd Hin; [contradiction|].
  rewrite app_at_cons. cbn in Hnd. inversion Hnd as [|? ? Hni Hnd']; subst.
  destruct Hin as [[= -> ->]|Hin].
  - rewrite Nat.eqb_refl. apply app_at_none. exact Hni.
  - assert (H : i <> j) by (intros ->; apply Hni, (in_map fst _ _ Hin)).
    apply Nat.eqb_neq in H. rewrite H. apply IH; assumption.
Qed.

Definition in_b (j : nat) (l : list nat) : bool := existsb (Nat.eqb j) l.

Lemma in_b_In j l : in_b j l = true <-> In j l.
Proof.
  unfold in_b. rewrite existsb_exists. split.
  - intros (x & Hin & E). apply Nat.eqb_eq in E. subst. exact Hin.
  - intros H. exists j. split; [exact H|apply Nat.eqb_refl].
Qed.

Lemma in_b_cons j i l : in_b j (i :: l) = Nat.eqb i j || in_b j l.
Proof. unfold in_b. cbn [existsb]. rewrite (Nat.eqb_sym j i). reflexivity. Qed.

Lemma app_at_const {A B} (g : A -> A) j (l : list (nat * B)) :
  (forall p, g (g p) = g p) -> forall p, app_at (fun _ => g) j l p = if in_b j (map fst l) then g p else p.
Proof.
  intros Hg. induction l as [|[i b] l IH]; intros p; [reflexivity|].
  rewrite app_at_cons, IH. cbn [map fst]. rewrite in_b_cons.
  destruct (Nat.eqb i j); [rewrite Hg|]; destruct (in_b j (map fst l)); reflexivity.
Qed.

Lemma app_at_preserves {A B C} (G : B -> A -> A) (h : A -> C) j l :
  (forall b p, h (G b p) = h p) -> forall p, h (app_at G j l p) = h p.
Proof.
  intros HG. induction l as [|[i b] l IH]; intros p; [reflexivity|].
  rewrite app_at_cons, IH. destruct (Nat.eqb i j); auto.
Qed.

Section OneProp.
Context {T : Type}.

Lemma stage_committed (x : T) p : c_committed (fst (cp_stage x p)) = c_committed p.
Proof. reflexivity. Qed.
Lemma discard_committed (p : cprop T) : c_committed (cp_discard p) = c_committed p.
Proof. reflexivity. Qed.

Lemma discard_stage_at j (l : list (nat * T)) (p : cprop T) :
  app_at (fun _ => cp_discard) j l (app_at (fun x p => fst (cp_stage x p)) j l p) =
  if in_b j (map fst l) then cp_discard p else p.
Proof.
  rewrite app_at_const by reflexivity. destruct (in_b j (map fst l)) eqn:E.
  - unfold cp_discard. rewrite (app_at_preserves _ c_committed) by apply stage_committed. reflexivity.
  - apply app_at_none. rewrite <- in_b_In. congruence.
Qed.

End OneProp.

Lemma path_eqb_eq a b : path_eqb a b = true <-> a = b.
Proof. apply list_eqb_eq, str_eqb_eq. Qed.

Lemma path_eqb_refl a : path_eqb a a = true.
Proof. apply path_eqb_eq. reflexivity. Qed.

Lemma strip_spec a b r : strip a b = Some r <-> b = a ++ r.
Proof.
  revert b. induction a as [|x a IH]; intros [|y b]; cbn; try (split; congruence).
  destruct (str_eqb x y) eqn:E.
  - apply str_eqb_eq in E as ->. rewrite IH. split; congruence.
  - apply str_eqb_neq in E. split; congruence.
Qed.

Lemma strip_app a r : strip a (a ++ r) = Some r.
Proof. apply strip_spec. reflexivity. Qed.

Definition distinct_rows (tbl : table) : Prop :=
  forall i j f g, nth_error tbl i = Some f -> nth_error tbl j = Some g -> i <> j ->
                  strip (f_path f) (f_path g) = None.

Lemma table_ok_distinct tbl : table_ok tbl = true -> distinct_rows tbl.
Proof.
  unfold table_ok. intros H. apply andb_true_iff in H as [_ H].
  induction tbl as [|h t IH]; intros i j f g Hi Hj Hne.
  - destruct i; discriminate.
  - apply andb_true_iff in H as [Hh Ht]. rewrite forallb_forall in Hh.
    destruct i as [|i], j as [|j]; cbn in Hi, Hj.
    + contradiction.
    + injection Hi as ->. apply nth_error_In, Hh in Hj.
      destruct (strip (f_path f) (f_path g)); [discriminate|reflexivity].
    + injection Hj as ->. apply nth_error_In, Hh in Hi.
      destruct (strip (f_path g) (f_path f)), (strip (f_path f) (f_path g)); try discriminate. reflexivity.
    + apply (IH Ht i j); auto.
Qed.

Lemma find_from_some tbl : forall k p i f,
  find_from k tbl p = Some (i, f) -> exists i0, i = (k + i0)%nat /\ nth_error tbl i0 = Some f /\ f_path f = p.
Proof.
  induction tbl as [|h t IH]; intros k p i f H; [discriminate|].
  cbn in H. destruct (path_eqb (f_path h) p) eqn:E.
  - injection H as <- <-. exists 0%nat. rewrite Nat.add_0_r. apply path_eqb_eq in E. auto.
  - destruct (IH _ _ _ _ H) as (i0 & -> & Hn & Hp). exists (S i0). rewrite Nat.add_succ_r. auto.
Qed.

Lemma find_field_some tbl p i f :
  find_field tbl p = Some (i, f) -> nth_error tbl i = Some f /\ f_path f = p.
Proof. intros H. destruct (find_from_some _ _ _ _ _ H) as (i0 & -> & Hn & Hp). auto. Qed.

Lemma find_from_none tbl : forall k p,
  find_from k tbl p = None -> forall f, In f tbl -> f_path f <> p.
Proof.
  induction tbl as [|h t IH]; intros k p H f Hin; [contradiction|].
  cbn in H. destruct (path_eqb (f_path h) p) eqn:E; [discriminate|].
  destruct Hin as [<-|Hin].
  - rewrite <- path_eqb_eq. congruence.
  - eapply IH; eauto.
Qed.

Lemma find_field_nth tbl i f :
  distinct_rows tbl -> nth_error tbl i = Some f -> find_field tbl (f_path f) = Some (i, f).
Proof.
  intros Hd Hn. unfold find_field.
  destruct (find_from 0 tbl (f_path f)) as [[i' f']|] eqn:E.
  - destruct (find_field_some _ _ _ _ E) as [Hn' Hp].
    destruct (Nat.eq_dec i' i) as [->|Hne]; [congruence|].
    pose proof (Hd i' i f' f Hn' Hn Hne) as Hs. pose proof (strip_app (f_path f) []) as Hs'.
    rewrite app_nil_r in Hs'. congruence.
  - destruct (find_from_none _ _ _ E f); [eapply nth_error_In; eauto|reflexivity].
Qed.

Lemma get_nth tbl vs i f :
  distinct_rows tbl -> nth_error tbl i = Some f -> get tbl vs (f_path f) = nth_error vs i.
Proof. intros Hd Hn. unfold get. rewrite (find_field_nth _ _ _ Hd Hn). reflexivity. Qed.

Lemma is_section_true tbl p f r :
  In f tbl -> f_path f = p ++ r -> r <> [] -> is_section tbl p = true.
Proof.
  intros Hin Hp Hr. unfold is_section. apply existsb_exists. exists f. split; [assumption|].
  rewrite Hp, strip_app. destruct r; [contradiction|reflexivity].
Qed.

Scheme json_mut := Induction for json Sort Prop
  with jmap_mut := Induction for jmap Sort Prop.

Lemma jmap_nested_ind (P : jmap -> Prop) :
  P MNil ->
  (forall k v m, (forall m1, v = JObj m1 -> P m1) -> P m -> P (MCons k v m)) ->
  forall m, P m.
Proof.
  intros H0 H1.
  apply (jmap_mut (fun j => forall m1, j = JObj m1 -> P m1) P); try discriminate; auto.
  intros m Hm m1 [= <-]. exact Hm.
Qed.

Lemma jfind_in k m v : jfind k m = Some v -> In k (jkeys m).
Proof.
  induction m as [|k' v' m IH]; cbn; [discriminate|].
  destruct (str_eqb k k') eqn:E; intros H.
  - left. apply str_eqb_eq in E. auto.
  - right. auto.
Qed.

Lemma existsb_str_in k l : existsb (str_eqb k) l = false -> ~ In k l.
Proof.
  intros H Hin. assert (existsb (str_eqb k) l = true); [|congruence].
  apply existsb_exists. exists k. split; [assumption|apply str_eqb_refl].
Qed.

Lemma lookup_cons_same k v m t :
  lookup_path (MCons k v m) (k :: t) =
  match t with [] => Some v | _ => match v with JObj m1 => lookup_path m1 t | _ => None end end.
Proof. cbn. rewrite str_eqb_refl. reflexivity. Qed.

Lemma lookup_cons_other k v m k0 t :
  k0 <> k -> lookup_path (MCons k v m) (k0 :: t) = lookup_path m (k0 :: t).
Proof. intros Hne. apply str_eqb_neq in Hne. cbn. rewrite Hne. reflexivity. Qed.

Lemma lookup_head k0 t m j : lookup_path m (k0 :: t) = Some j -> In k0 (jkeys m).
Proof.
  cbn. destruct (jfind k0 m) eqn:E; [intros _; eapply jfind_in; eauto|]. destruct t; discriminate.
Qed.

(* the settings a document addresses below a section: row i of the table (field f), given the value j *)
Definition targets (tbl : table) (pre : path) (m : jmap) (i : nat) (f : field) (j : json) : Prop :=
  exists rest, nth_error tbl i = Some f /\ f_path f = pre ++ rest /\ lookup_path m rest = Some j.

Lemma targets_nil tbl pre i f j : ~ targets tbl pre MNil i f j.
Proof. intros (rest & _ & _ & H). destruct rest as [|k [|k' t]]; discriminate. Qed.

Lemma targets_cons tbl pre k v m i f j : distinct_rows tbl -> ~ In k (jkeys m) ->
  targets tbl pre (MCons k v m) i f j <->
  find_field tbl (pre ++ [k]) = Some (i, f) /\ j = v \/
  match v with JObj m1 => targets tbl (pre ++ [k]) m1 i f j | _ => False end \/
  targets tbl pre m i f j.
Proof.
  intros Hd Hk. split.
  - intros (rest & Hn & Hp & Hl). destruct rest as [|k0 t]; [discriminate|].
    destruct (str_eqb k0 k) eqn:E.
    + apply str_eqb_eq in E as ->. rewrite lookup_cons_same in Hl. destruct t as [|k1 t].
      * left. injection Hl as <-. rewrite <- Hp. auto using find_field_nth.
      * right; left. destruct v; try discriminate. exists (k1 :: t). rewrite <- app_assoc. auto.
    + apply str_eqb_neq in E. rewrite lookup_cons_other in Hl by exact E.
      right; right. exists (k0 :: t). auto.
  - intros [[Ef ->]|[H|(rest & Hn & Hp & Hl)]].
    + apply find_field_some in Ef as [Hn Hp]. exists [k]. rewrite lookup_cons_same. auto.
    + destruct v; try contradiction. destruct H as (rest & Hn & Hp & Hl).
      exists (k :: rest). rewrite lookup_cons_same, Hp, <- app_assoc. destruct rest; [discriminate|]. auto.
    + exists rest. destruct rest as [|k0 t]; [discriminate|].
      rewrite lookup_cons_other; [auto|]. intros ->. apply Hk. eapply lookup_head; eauto.
Qed.

Lemma targets_below_field tbl p m i f j i0 f0 :
  distinct_rows tbl -> find_field tbl p = Some (i0, f0) -> ~ targets tbl p m i f j.
Proof.
  intros Hd Ef (rest & Hn & Hp & Hl). apply find_field_some in Ef as [Hn0 Hp0].
  destruct (Nat.eq_dec i0 i) as [->|Hne].
  - rewrite Hn0 in Hn. injection Hn as ->. rewrite Hp0 in Hp. rewrite <- (app_nil_r p) in Hp at 1.
    apply app_inv_head in Hp as <-. discriminate.
  - pose proof (Hd i0 i f0 f Hn0 Hn Hne) as Hs. rewrite Hp0, Hp, strip_app in Hs. discriminate.
Qed.

Lemma targets_section tbl p m i f j : targets tbl p m i f j -> is_section tbl p = true.
Proof.
  intros (rest & Hn & Hp & Hl). eapply is_section_true; [eapply nth_error_In; eauto|exact Hp|].
  intros ->. discriminate.
Qed.

Lemma targets_not_under tbl pre m k i f j f' t :
  ~ In k (jkeys m) -> targets tbl pre m i f j -> nth_error tbl i = Some f' -> f_path f' <> pre ++ k :: t.
Proof.
  intros Hk (rest & Hn & Hp & Hl) Hn' Hp'. rewrite Hn in Hn'. injection Hn' as <-.
  rewrite Hp in Hp'. apply app_inv_head in Hp' as ->. apply Hk. eapply lookup_head; eauto.
Qed.

Section Txn.
Variable lib_dur : str -> option Z.
Variable lib_level : str -> option Z.
Variable addr_ok : str -> bool.

Notation decode := (decode lib_dur lib_level).
Notation walk := (walk lib_dur lib_level).
Notation update := (update lib_dur lib_level addr_ok).
Notation update_opt := (update_opt lib_dur lib_level addr_ok).
Notation verify_view := (verify_view addr_ok).
Notation can_run_b := (can_run_b addr_ok).
Notation load := (load addr_ok).
Notation start := (start addr_ok).
Notation step := (step lib_dur lib_level addr_ok).
Notation run := (run lib_dur lib_level addr_ok).

Lemma decode_no_panic k j : decode k j <> Panic.
Proof.
  destruct k, j; cbn; try discriminate.
  - destruct (in_int64 z); discriminate.
  - pose proof (bs_parse_no_panic s). destruct (bs_parse s); [discriminate|discriminate|contradiction].
  - destruct (lib_dur s); discriminate.
  - destruct (lib_level s); discriminate.
Qed.

Lemma walk_no_panic tbl m : forall pre, snd (walk tbl pre m) <> WPanic.
Proof.
  induction m as [|k v m IHv IHm] using jmap_nested_ind; intros pre; cbn [ConfigTxn.walk]; [discriminate|].
  specialize (IHm pre). destruct (walk tbl pre m) as [l2 r2].
  destruct (find_field tbl (pre ++ [k])) as [[i f]|].
  - pose proof (decode_no_panic (f_kind f) v).
    destruct (decode (f_kind f) v); [exact IHm|discriminate|contradiction].
  - destruct (is_section tbl (pre ++ [k])); [|exact IHm]. destruct v; try exact IHm.
    specialize (IHv m0 eq_refl (pre ++ [k])). destruct (walk tbl (pre ++ [k]) m0) as [l1 [| |]]; cbn in *; auto.
Qed.

(* the first clause of walk_spec, over any relation T: it is carried along implications of T *)
Definition staged_from (T : nat -> field -> json -> Prop) (l : list (nat * fval)) : Prop :=
  forall i x, In (i, x) l -> exists f j, T i f j /\ decode (f_kind f) j = Ok x.

Lemma staged_from_impl (T T' : nat -> field -> json -> Prop) l :
  (forall i f j, T i f j -> T' i f j) -> staged_from T l -> staged_from T' l.
Proof. intros HT A i x Hin. destruct (A i x Hin) as (f & j & Ht & D). eauto. Qed.

(* What a walk below [pre] has staged, against the settings the document addresses there: every staged entry
   is an addressed setting with its decoded value; if the walk succeeded, every addressed setting was staged;
   each setting at most once.  [walk_entries] states the three with [targets] spelled out. *)
Definition walk_spec (tbl : table) (pre : path) (m : jmap) (l : list (nat * fval)) (r : wres) : Prop :=
  staged_from (targets tbl pre m) l /\
  (r = WOk -> forall i f j, targets tbl pre m i f j -> exists x, decode (f_kind f) j = Ok x /\ In (i, x) l) /\
  NoDup (map fst l).

Theorem walk_targets tbl : distinct_rows tbl ->
  forall m, wf_jmap m = true -> forall pre l r, walk tbl pre m = (l, r) -> walk_spec tbl pre m l r.
Proof.
  intros Hd. induction m as [|k v m IHv IHm] using jmap_nested_ind; intros Hwf pre l r Hw.
  { injection Hw as <- <-. split; [intros i x []|split; [|constructor]].
    intros _ i f j T. destruct (targets_nil _ _ _ _ _ T). }
  cbn [wf_jmap] in Hwf. apply andb_true_iff in Hwf as [Hwf Hwfm]. apply andb_true_iff in Hwf as [Hk Hwfv].
  apply negb_true_iff, existsb_str_in in Hk. specialize (IHm Hwfm pre). cbn [ConfigTxn.walk] in Hw.
  assert (TC := fun i f j => targets_cons tbl pre k v m i f j Hd Hk).
  assert (Tail : forall i f j, targets tbl pre m i f j -> targets tbl pre (MCons k v m) i f j)
    by (intros i f j T; apply TC; auto).
  destruct (find_field tbl (pre ++ [k])) as [[i0 f0]|] eqn:Ef.
  - (* the key names a property *)
    destruct (decode (f_kind f0) v) as [x0| |] eqn:Ed;
      [|injection Hw as <- <-; split; [intros i x []|split; [discriminate|constructor]]..].
    destruct (walk tbl pre m) as [l2 r2]. injection Hw as <- <-.
    destruct (IHm _ _ eq_refl) as (A & B & C). split; [|split].
    + intros i x [[= <- <-]|Hin]; [|exact (staged_from_impl _ _ _ Tail A i x Hin)].
      exists f0, v. split; [apply TC; auto|exact Ed].
    + intros -> i f j T. apply TC in T as [[[= <- <-] ->]|[T|T]].
      * eauto with datatypes.
      * destruct v; [..|destruct (targets_below_field _ _ _ _ _ _ _ _ Hd Ef T)]; contradiction.
      * destruct (B eq_refl i f j T) as (x & ? & ?). eauto with datatypes.
    + cbn [map fst]. constructor; [|exact C]. intros ([i x] & E & Hin)%in_map_iff. cbn in E. subst i.
      destruct (A _ _ Hin) as (f & j & T & _). apply find_field_some in Ef as [Hn0 Hp0].
      exact (targets_not_under _ _ _ _ _ _ _ _ [] Hk T Hn0 Hp0).
  - (* not a property: a section given an object is descended into, anything else is passed over *)
    assert (Skip : walk_spec tbl pre m l r ->
                   (forall i f j, ~ match v with JObj m1 => targets tbl (pre ++ [k]) m1 i f j | _ => False end) ->
                   walk_spec tbl pre (MCons k v m) l r).
    { intros (A & B & C) No. split; [exact (staged_from_impl _ _ _ Tail A)|split; [|exact C]].
      intros Hr i f j T. apply TC in T as [[[=] _]|[T|T]]; [destruct (No _ _ _ T)|exact (B Hr i f j T)]. }
    destruct (is_section tbl (pre ++ [k])) eqn:Es.
    2:{ apply Skip; [exact (IHm _ _ Hw)|]. intros i f j T. destruct v; try exact T.
        apply targets_section in T. congruence. }
    destruct v as [| | | | | |m1]; try (apply Skip; [exact (IHm _ _ Hw)|auto]).
    destruct (walk tbl (pre ++ [k]) m1) as [l1 r1] eqn:E1.
    destruct (IHv m1 eq_refl Hwfv (pre ++ [k]) l1 r1 E1) as (A1 & B1 & C1).
    assert (A1' : staged_from (targets tbl pre (MCons k (JObj m1) m)) l1)
      by (revert A1; apply staged_from_impl; intros i f j T; apply TC; auto).
    destruct r1; [|injection Hw as <- <-; split; [exact A1'|split; [discriminate|exact C1]]..].
    destruct (walk tbl pre m) as [l2 r2]. injection Hw as <- <-.
    destruct (IHm _ _ eq_refl) as (A & B & C). split; [|split].
    + intros i x [Hin|Hin]%in_app_or; [exact (A1' i x Hin)|exact (staged_from_impl _ _ _ Tail A i x Hin)].
    + intros -> i f j T. apply TC in T as [[[=] _]|[T|T]].
      * destruct (B1 eq_refl i f j T) as (x & ? & ?). eauto with datatypes.
      * destruct (B eq_refl i f j T) as (x & ? & ?). eauto with datatypes.
    + rewrite map_app. apply NoDup_app_intro; [exact C1|exact C|].
      intros i ([i1 x1] & E1' & Hin1)%in_map_iff ([i2 x2] & E2 & Hin2)%in_map_iff. cbn in E1', E2. subst i1 i2.
      destruct (A1 _ _ Hin1) as (f1 & j1 & (rest & Hn1 & Hp1 & _) & _), (A _ _ Hin2) as (f2 & j2 & T2 & _).
      rewrite <- app_assoc in Hp1. exact (targets_not_under _ _ _ _ _ _ _ _ _ Hk T2 Hn1 Hp1).
Qed.

(* walk_spec in terms of the table and the document *)
Lemma walk_entries tbl : distinct_rows tbl -> (forall f, In f tbl -> f_path f <> []) ->
  forall m, wf_jmap m = true -> forall pre l r, walk tbl pre m = (l, r) ->
  (* (a) every staged entry is a setting the document addresses, with the decoded value *)
  (forall i x, In (i, x) l ->
     exists f rest j, nth_error tbl i = Some f /\ f_path f = pre ++ rest /\ rest <> [] /\
                      lookup_path m rest = Some j /\ decode (f_kind f) j = Ok x) /\
  (* (b) if the walk succeeded, every addressed setting was staged *)
  (r = WOk -> forall i f rest j, nth_error tbl i = Some f -> f_path f = pre ++ rest ->
     lookup_path m rest = Some j -> exists x, decode (f_kind f) j = Ok x /\ In (i, x) l) /\
  (* (c) each setting at most once *)
  NoDup (map fst l).
Proof.
  intros Hd _ m Hwf pre l r Hw.
  destruct (walk_targets tbl Hd m Hwf pre l r Hw) as (A & B & C). split; [|split; [|exact C]].
  - intros i x Hin. destruct (A i x Hin) as (f & j & (rest & Hn & Hp & Hl) & D).
    exists f, rest, j. repeat split; auto. intros ->. discriminate.
  - intros Hr i f rest j Hn Hp Hl. apply (B Hr). exists rest. auto.
Qed.

(* the state after the walk has staged l, as it is written to the file; and after the refusal *)
Definition staged (s : st) (l : list (nat * fval)) : st :=
  let ps := stage_all l (s_props s) in
  {| s_props := ps; s_log := s_log s; s_file := FGood (pending_saved ps);
     s_restart := s_restart s; s_alive := s_alive s |}.

Definition refused (s : st) (l : list (nat * fval)) : st :=
  {| s_props := discard_all l (stage_all l (s_props s)); s_log := s_log s; s_file := s_file s;
     s_restart := s_restart s; s_alive := s_alive s |}.

Lemma update_cases tbl s doc fault wlen :
  let l := fst (walk tbl [] doc) in
  let s2 := fold_left (commit_one tbl) (map fst l) (staged s l) in
  update tbl s doc fault wlen = Ok (refused s l, Failed) \/
  walk tbl [] doc = (l, WOk) /\
  verify_view tbl (pending_eff (stage_all l (s_props s))) = true /\
  verify_view tbl (pending_saved (stage_all l (s_props s))) = true /\
  update tbl s doc fault wlen = Ok (s2, if s_restart s2 then RestartRequired else Success).
Proof.
  unfold ConfigTxn.update. pose proof (walk_no_panic tbl doc []) as Hp.
  destruct (walk tbl [] doc) as [l r]. cbn [fst snd staged s_props] in *.
  destruct r; [|left; reflexivity|contradiction].
  destruct (verify_view tbl (pending_eff _)); [|left; reflexivity].
  destruct (verify_view tbl (pending_saved _)); [|left; reflexivity].
  destruct (write_ok fault wlen); [right; auto|left; reflexivity].
Qed.

Theorem update_opt_total tbl s doc fault wlen : update_opt tbl s doc fault wlen <> Panic.
Proof.
  destruct doc as [m|]; cbn; [|discriminate].
  destruct (update_cases tbl s m fault wlen) as [E|(_ & _ & _ & E)]; rewrite E; discriminate.
Qed.

Lemma settled_nth s j p : settled s -> nth_error (s_props s) j = Some p -> c_staged p = None.
Proof. unfold settled. rewrite Forall_forall. intros Hs Hj. eapply Hs, nth_error_In, Hj. Qed.

Lemma refused_at s l j :
  nth_error (s_props (refused s l)) j =
  option_map (fun p => if in_b j (map fst l) then cp_discard p else p) (nth_error (s_props s) j).
Proof.
  cbn [refused s_props]. unfold discard_all, stage_all.
  rewrite (nth_error_fold_upd (fun _ => cp_discard)), (nth_error_fold_upd (fun x p => fst (cp_stage x p))).
  destruct (nth_error (s_props s) j); [|reflexivity]. cbn [option_map]. rewrite discard_stage_at. reflexivity.
Qed.

Lemma refused_committed s l : map c_committed (s_props (refused s l)) = map c_committed (s_props s).
Proof.
  apply nth_error_ext. intros j. rewrite !nth_error_map, refused_at.
  destruct (nth_error (s_props s) j), (in_b j (map fst l)); reflexivity.
Qed.

Lemma refused_settled s l : settled s -> refused s l = s.
Proof.
  intros Hs. assert (E : s_props (refused s l) = s_props s); [|destruct s; unfold refused in *; cbn in *; congruence].
  apply nth_error_ext. intros j. rewrite refused_at.
  destruct (nth_error (s_props s) j) as [p|] eqn:E, (in_b j (map fst l)); try reflexivity.
  apply (settled_nth s j p Hs) in E. destruct p as [c st]. cbn in E. subst st. reflexivity.
Qed.

Theorem reject_is_noop tbl s doc fault wlen s' :
  update tbl s doc fault wlen = Ok (s', Failed) ->
  effective s' = effective s /\ s_log s' = s_log s /\ s_file s' = s_file s /\
  s_alive s' = s_alive s /\ s_restart s' = s_restart s /\
  map c_committed (s_props s') = map c_committed (s_props s) /\
  (settled s -> s' = s).
Proof.
  intros H. destruct (update_cases tbl s doc fault wlen) as [E|(_ & _ & _ & E)]; rewrite E in H;
    [injection H as <-|destruct (s_restart _); discriminate].
  repeat split; [|apply refused_committed|apply refused_settled].
  (* [effective] factors through [map c_committed], which a refusal leaves alone *)
  unfold effective. change (@cp_read fval) with (fun p : cprop fval => ow_get (c_committed p)).
  rewrite <- !(map_map c_committed ow_get), refused_committed. reflexivity.
Qed.

Theorem reject_opt_is_noop tbl s doc fault wlen s' :
  update_opt tbl s doc fault wlen = Ok (s', Failed) ->
  effective s' = effective s /\ s_log s' = s_log s /\ s_file s' = s_file s /\
  s_alive s' = s_alive s /\ s_restart s' = s_restart s /\ (settled s -> s' = s).
Proof.
  destruct doc as [m|]; cbn.
  - intros H. destruct (reject_is_noop _ _ _ _ _ _ H) as (A & B & C & D & E & _ & F). auto 10.
  - intros [= <-]. auto 10.
Qed.

Lemma is_s_impl o (p q : str -> bool) : (forall s, p s = true -> q s = true) -> is_s o p = true -> is_s o q = true.
Proof. destruct o as [[]|]; cbn; auto. Qed.

Lemma is_z_impl o (p q : Z -> bool) : (forall z, p z = true -> q z = true) -> is_z o p = true -> is_z o q = true.
Proof. destruct o as [[]|]; cbn; auto. Qed.

Lemma is_s_inv o p : is_s o p = true -> exists s, o = Some (VS s) /\ p s = true.
Proof. destruct o as [[s| |]|]; try discriminate. eauto. Qed.

Lemma is_z_inv o p : is_z o p = true -> exists z, o = Some (VZ z) /\ p z = true.
Proof. destruct o as [[| |z]|]; try discriminate. eauto. Qed.

Lemma both_bool_inv (o1 o2 : option fval) (g : bool -> bool -> bool) :
  match o1, o2 with Some (VB a), Some (VB d) => g a d | _, _ => false end = true ->
  exists a d, o1 = Some (VB a) /\ o2 = Some (VB d) /\ g a d = true.
Proof. destruct o1 as [[|a|]|], o2 as [[|d|]|]; try discriminate. eauto. Qed.

Lemma ok_unit (r : res unit) : match r with Ok _ => true | _ => false end = true -> r = Ok tt.
Proof. destruct r as [[]| |]; [reflexivity|discriminate|discriminate]. Qed.

Lemma nonempty_ne s : nonempty s = true -> s <> [].
Proof. destruct s; [discriminate|discriminate]. Qed.

Lemma webserver_start_ok api dash : negb (api && negb dash) = true -> webserver_start api dash = Ok tt.
Proof. unfold webserver_start. destruct (api && negb dash); [discriminate|reflexivity]. Qed.

Lemma ticker_pos d : 0 < d -> ticker d = Ok tt.
Proof. unfold ticker. intros H. destruct (d <=? 0) eqn:E; [lia|reflexivity]. Qed.

Lemma make_locks_ok n : 0 <= n <= max_lock_shards -> make_locks n = Ok tt.
Proof.
  unfold make_locks, max_lock_shards. intros H.
  destruct (n <? 0) eqn:E1; [lia|]. destruct (2 ^ 48 <? n * 24) eqn:E2; [lia|reflexivity].
Qed.

Lemma get_lock_ok n val : 1 <= n < 2 ^ 32 -> exists i, get_lock n val = Ok i /\ 0 <= i < n.
Proof.
  intros H. unfold get_lock. rewrite (Z.mod_small n) by lia.
  pose proof (Z.mod_pos_bound val n ltac:(lia)) as Hb.
  destruct (n =? 0) eqn:E0; [lia|]. destruct (val mod n <? n) eqn:E1; [eauto|lia].
Qed.

Theorem verify_implies_can_run_b tbl vs : verify_view tbl vs = true -> can_run_b tbl vs = true.
Proof using addr_ok. (* here and below: of the section's variables the statement is to depend on addr_ok alone *)
  unfold ConfigTxn.verify_view, verify_proxy, verify_webserver, verify_cache, ConfigTxn.can_run_b.
  intros [[[[P1 P2]%andb_prop P3]%andb_prop [W1 W2]%andb_prop]%andb_prop K]%andb_prop.
  apply andb_prop in K as [[[[[K1 K2]%andb_prop K3]%andb_prop K4]%andb_prop K5]%andb_prop K6].
  assert (Hl : forall s, listen_ok addr_ok s = true -> addr_ok s = true)
    by (intros s [_ H]%andb_prop; exact H).
  (* left are the clauses where the consumer's test is not verify's own *)
  repeat (apply andb_true_intro; split); try assumption.
  - (* proxy.listen *) exact (is_s_impl _ _ _ Hl P1).
  - (* webserver.listen *) exact (is_s_impl _ _ _ Hl W1).
  - (* startWebServer *) apply both_bool_inv in W2 as (api & dash & -> & -> & W2). rewrite (webserver_start_ok _ _ W2). reflexivity.
  - (* the janitor's ticker *) revert K2. apply is_z_impl. intros d H. apply Z.ltb_lt in H. rewrite (ticker_pos d H). reflexivity.
  - (* the lock shards *) revert K3. apply is_z_impl. intros n H. clear - H. unfold max_lock_shards in H.
    rewrite make_locks_ok by (unfold max_lock_shards; lia). lia.
Qed.

(* the consumers' operations, spelled out *)
Definition can_run (tbl : table) (vs : list fval) : Prop :=
  exists listen wlisten cert key ctype dir api dash interval shards size percent,
    get tbl vs p_proxy_listen = Some (VS listen) /\ addr_ok listen = true /\
    get tbl vs p_web_listen = Some (VS wlisten) /\ addr_ok wlisten = true /\
    get tbl vs p_ca_cert = Some (VS cert) /\ cert <> [] /\
    get tbl vs p_ca_key = Some (VS key) /\ key <> [] /\
    get tbl vs p_api_disabled = Some (VB api) /\ get tbl vs p_dash_disabled = Some (VB dash) /\
    webserver_start api dash = Ok tt /\
    get tbl vs p_cache_type = Some (VS ctype) /\ cache_type_ok ctype = true /\
    get tbl vs p_cache_dir = Some (VS dir) /\ dir <> [] /\
    get tbl vs p_cleanup_interval = Some (VZ interval) /\ ticker interval = Ok tt /\
    get tbl vs p_lock_shards = Some (VZ shards) /\ make_locks shards = Ok tt /\
    (forall val, 0 <= val < 2^32 -> exists i, get_lock shards val = Ok i /\ 0 <= i < shards) /\
    get tbl vs p_max_cache_size = Some (VZ size) /\ 0 < size /\
    get tbl vs p_mem_percent = Some (VZ percent) /\ 0 <= percent <= 100.

Theorem can_run_b_sound tbl vs : can_run_b tbl vs = true -> can_run tbl vs.
Proof using addr_ok.
  unfold ConfigTxn.can_run_b, can_run.
  intros [[[[[H D]%andb_prop I]%andb_prop S]%andb_prop M]%andb_prop P]%andb_prop.
  apply andb_prop in H as [[[[[L WL]%andb_prop C]%andb_prop K]%andb_prop W]%andb_prop CT].
  apply is_s_inv in L as (listen & L & HL), WL as (wlisten & WL & HWL), C as (cert & C & HC),
    K as (key & K & HK), CT as (ctype & CT & HCT), D as (dir & D & HD).
  apply both_bool_inv in W as (api & dash & A & DS & W).
  apply is_z_inv in I as (interval & I & HI), S as (shards & S & HS), M as (size & M & HM),
    P as (percent & P & HP).
  apply ok_unit in W, HI. destruct (make_locks shards) as [[]| |] eqn:Em; try discriminate.
  assert (0 < size /\ 0 <= percent <= 100 /\ 1 <= shards < 2 ^ 32) as (? & [? ?] & ?) by (clear - HM HP HS; lia).
  exists listen, wlisten, cert, key, ctype, dir, api, dash, interval, shards, size, percent.
  repeat split; auto using nonempty_ne, get_lock_ok.
Qed.

Theorem verify_implies_can_run tbl vs : verify_view tbl vs = true -> can_run tbl vs.
Proof using addr_ok. intros H. apply can_run_b_sound, verify_implies_can_run_b, H. Qed.

Lemma load_spec tbl f vs :
  load tbl f = Ok vs <-> f = FGood vs /\ length vs = length tbl /\ verify_view tbl vs = true.
Proof.
  unfold ConfigTxn.load. split.
  - destruct f as [ws| |]; try discriminate.
    destruct (Nat.eqb_spec (length ws) (length tbl)); [|discriminate].
    destruct (verify_view tbl ws) eqn:Ev; [|discriminate]. intros [= <-]. auto.
  - intros (-> & -> & ->). rewrite Nat.eqb_refl. reflexivity.
Qed.

Theorem load_implies_can_run tbl f vs : load tbl f = Ok vs -> can_run tbl vs.
Proof using addr_ok.
  intros (_ & _ & Hv)%load_spec. exact (verify_implies_can_run _ _ Hv).
Qed.

(* the janitor's listener (cache_janitor.go: ticker.Reset) is a consumer like the others: its clause of
   can_run_b is listener_ok *)
Lemma can_run_b_listener_ok tbl vs p v : can_run_b tbl vs = true -> get tbl vs p = Some v -> listener_ok p v = true.
Proof.
  unfold ConfigTxn.can_run_b. intros [[[[_ I]%andb_prop _]%andb_prop _]%andb_prop _]%andb_prop Hg.
  unfold listener_ok. destruct (path_eqb p p_cleanup_interval) eqn:E; [|reflexivity].
  apply path_eqb_eq in E as ->. rewrite Hg in I. exact I.
Qed.

Definition wf_state (tbl : table) (s : st) : Prop :=
  length (s_props s) = length tbl /\ length (s_log s) = length tbl.

Lemma commit_one_at tbl s i :
  length (s_props s) = length tbl ->
  let s1 := commit_one tbl s i in
  (forall j, nth_error (s_props s1) j =
             if Nat.eqb i j then option_map cp_commit (nth_error (s_props s) j) else nth_error (s_props s) j) /\
  (forall j, nth_error (s_log s1) j =
             if Nat.eqb i j then
               match nth_error (s_props s) j, nth_error (s_log s) j with
               | Some p, Some lg => Some (lg ++ cp_commit_fires p)
               | _, o => o
               end
             else nth_error (s_log s) j) /\
  s_file s1 = s_file s /\
  s_alive s1 = s_alive s && match nth_error (s_props s) i, nth_error tbl i with
                            | Some p, Some f => forallb (listener_ok (f_path f)) (cp_commit_fires p)
                            | _, _ => true
                            end /\
  length (s_props s1) = length (s_props s) /\ length (s_log s1) = length (s_log s).
Proof.
  intros Hl. unfold commit_one. destruct (nth_error (s_props s) i) as [p|] eqn:Ep.
  - destruct (nth_error_aligned _ tbl i p (eq_sym Hl) Ep) as [f ->].
    cbn [s_props s_log s_file s_alive]. rewrite !length_upd_nth. repeat split; intros j; rewrite nth_error_upd_nth.
    + reflexivity.
    + destruct (Nat.eqb_spec i j) as [<-|]; [|reflexivity]. rewrite Ep. destruct (nth_error (s_log s) i); reflexivity.
  - rewrite andb_true_r. repeat split; intros j; (destruct (Nat.eqb_spec i j) as [<-|]; [rewrite Ep|]; reflexivity).
Qed.

Lemma commit_fold tbl : forall (is : list nat) s, NoDup is ->
  length (s_props s) = length tbl -> length (s_log s) = length tbl ->
  let s2 := fold_left (commit_one tbl) is s in
  length (s_props s2) = length tbl /\ length (s_log s2) = length tbl /\ s_file s2 = s_file s /\
  (forall j, nth_error (s_props s2) j =
             if in_b j is then option_map cp_commit (nth_error (s_props s) j) else nth_error (s_props s) j) /\
  (forall j, nth_error (s_log s2) j =
             if in_b j is then
               match nth_error (s_props s) j, nth_error (s_log s) j with
               | Some p, Some lg => Some (lg ++ cp_commit_fires p)
               | _, o => o
               end
             else nth_error (s_log s) j) /\
  s_alive s2 = s_alive s && forallb (fun i => match nth_error (s_props s) i, nth_error tbl i with
                                              | Some p, Some f => forallb (listener_ok (f_path f)) (cp_commit_fires p)
                                              | _, _ => true
                                              end) is.
Proof.
  induction is as [|i is IH]; intros s Hnd Hlp Hll.
  - cbn. rewrite andb_true_r. auto 10.
  - apply NoDup_cons_iff in Hnd as [Hni Hnd].
    destruct (commit_one_at tbl s i Hlp) as (P1 & L1 & F1 & A1 & LP & LL).
    cbn [fold_left]. set (s1 := commit_one tbl s i) in *.
    destruct (IH s1 Hnd ltac:(congruence) ltac:(congruence)) as (A & B & C & D & E & F).
    (* i is committed once: the later commits read the other properties as they were *)
    assert (Hij : forall j, In j is -> Nat.eqb i j = false).
    { intros j Hj. apply Nat.eqb_neq. intros ->. contradiction. }
    repeat split; try assumption.
    + congruence.
    + intros j. rewrite D, P1, in_b_cons.
      destruct (in_b j is) eqn:Ej; [rewrite Hij by (apply in_b_In, Ej)|rewrite orb_false_r]; reflexivity.
    + intros j. rewrite E, L1, P1, in_b_cons.
      destruct (in_b j is) eqn:Ej; [rewrite Hij by (apply in_b_In, Ej)|rewrite orb_false_r]; reflexivity.
    + rewrite F, A1, <- andb_assoc. cbn [forallb]. do 2 f_equal.
      apply forallb_ext_in. intros j Hj. rewrite P1, (Hij j Hj). reflexivity.
Qed.

Lemma stage_all_in l ps j x : NoDup (map fst l) -> In (j, x) l ->
  nth_error (stage_all l ps) j = option_map (fun p => fst (cp_stage x p)) (nth_error ps j).
Proof.
  intros Hnd Hin. unfold stage_all. rewrite (nth_error_fold_upd (fun x p => fst (cp_stage x p))).
  destruct (nth_error ps j); [cbn|reflexivity]. rewrite (app_at_unique _ j l x); auto.
Qed.

Lemma stage_all_out l ps j : in_b j (map fst l) = false -> nth_error (stage_all l ps) j = nth_error ps j.
Proof.
  intros Hn. unfold stage_all. rewrite (nth_error_fold_upd (fun x p => fst (cp_stage x p))).
  destruct (nth_error ps j); [cbn|reflexivity]. rewrite app_at_none; [reflexivity|]. rewrite <- in_b_In. congruence.
Qed.

(* what CommitStaged tells the listeners is the pending effective value, and verify has seen those *)
Lemma fires_ok tbl ps i q f :
  distinct_rows tbl -> verify_view tbl (pending_eff ps) = true ->
  nth_error ps i = Some q -> nth_error tbl i = Some f ->
  forallb (listener_ok (f_path f)) (cp_commit_fires q) = true.
Proof.
  intros Hd Hv Hq Hf. destruct q as [c [o|]]; [|reflexivity]. cbn. rewrite andb_true_r.
  apply (can_run_b_listener_ok tbl (pending_eff ps)); [exact (verify_implies_can_run_b _ _ Hv)|].
  rewrite (get_nth _ _ _ _ Hd Hf). unfold pending_eff. rewrite nth_error_map, Hq. reflexivity.
Qed.

(* a property once an accepted update has given it x: x is the saved value, the command-line override stays in
   force, nothing is staged *)
Definition committed_to (x : fval) (p : cprop fval) : cprop fval :=
  {| c_committed := {| o_value := x; o_over := o_over (c_committed p) |}; c_staged := None |}.

Theorem accept_exact tbl s doc fault wlen s' stt :
  table_ok tbl = true -> wf_jmap doc = true -> wf_state tbl s -> settled s ->
  update tbl s doc fault wlen = Ok (s', stt) -> stt <> Failed ->
  (forall i f, nth_error tbl i = Some f ->
     match lookup_path doc (f_path f) with
     | Some j => exists x p lg, decode (f_kind f) j = Ok x /\
                   nth_error (s_props s) i = Some p /\ nth_error (s_log s) i = Some lg /\
                   nth_error (s_props s') i = Some (committed_to x p) /\
                   nth_error (s_log s') i = Some (lg ++ [cp_read (committed_to x p)])
     | None => nth_error (s_props s') i = nth_error (s_props s) i /\
               nth_error (s_log s') i = nth_error (s_log s) i
     end) /\
  s_file s' = FGood (bases s') /\ load tbl (s_file s') = Ok (bases s') /\
  verify_view tbl (effective s') = true /\ verify_view tbl (bases s') = true /\
  settled s' /\ wf_state tbl s' /\ s_alive s' = s_alive s.
Proof.
  intros Htbl Hdoc [Hlp Hll] Hset Hup Hnf. apply table_ok_distinct in Htbl as Hd.
  destruct (update_cases tbl s doc fault wlen) as [E|(Hw & Hve & Hvs & E)];
    rewrite E in Hup; injection Hup as <- <-; [contradiction|]. clear E Hnf.
  set (l := fst (walk tbl [] doc)) in *.
  destruct (walk_targets tbl Hd doc Hdoc [] l WOk Hw) as (WA & WB & WC). specialize (WB eq_refl).
  set (ps := stage_all l (s_props s)) in *.
  assert (Hlps : length ps = length tbl)
    by (rewrite <- Hlp; apply (length_fold_upd (fun x p => fst (cp_stage x p)))).
  destruct (commit_fold tbl (map fst l) (staged s l) WC Hlps Hll) as (CA & CB & CC & CD & CE & CF).
  set (s' := fold_left (commit_one tbl) (map fst l) (staged s l)) in *.
  cbn [staged s_props s_log s_file s_alive] in CC, CD, CE, CF. fold ps in CC, CD, CE, CF.
  (* the untouched ones had nothing staged: the commits have committed every property of ps *)
  assert (Hall : s_props s' = map cp_commit ps).
  { apply nth_error_ext. intros j. rewrite CD, nth_error_map. destruct (in_b j (map fst l)) eqn:Ej; [reflexivity|].
    unfold ps. rewrite (stage_all_out _ _ _ Ej). destruct (nth_error (s_props s) j) as [p|] eqn:Ep; [|reflexivity].
    cbn [option_map]. rewrite (commit_of_settled p (settled_nth s j p Hset Ep)). reflexivity. }
  assert (Hbases : bases s' = pending_saved ps).
  { unfold bases, pending_saved. rewrite Hall, map_map. apply map_ext, marshal_commit. }
  assert (Heff : effective s' = pending_eff ps).
  { unfold effective, pending_eff. rewrite Hall, map_map. apply map_ext, read_commit_pending. }
  rewrite Heff, Hbases, CC.
  split; [|split; [|split; [|split; [|split; [|split; [|split]]]]]]; auto.
  - intros i f Hi.
    destruct (nth_error_aligned tbl (s_props s) i f Hlp Hi) as [p Hp].
    destruct (nth_error_aligned tbl (s_log s) i f Hll Hi) as [lg Hlg].
    rewrite Hall, nth_error_map, CE.
    destruct (lookup_path doc (f_path f)) as [jv|] eqn:El.
    + destruct (WB i f jv) as (x & Hdec & Hin); [exists (f_path f); auto|].
      unfold ps. rewrite (stage_all_in _ _ _ _ WC Hin), (proj2 (in_b_In i _) (in_map fst _ _ Hin)), Hp, Hlg. exists x, p, lg. auto 10.
    + assert (Hn : in_b i (map fst l) = false).
      { destruct (in_b i (map fst l)) eqn:Ei; [|reflexivity].
        apply in_b_In, in_map_iff in Ei as ([i' x] & Ei & Hin). cbn in Ei. subst i'.
        destruct (WA _ _ Hin) as (f' & jv & (rest & H1 & H2 & H3) & _). cbn in H2. congruence. }
      unfold ps. rewrite Hn, (stage_all_out _ _ _ Hn), Hp. cbn [option_map]. rewrite (commit_of_settled p (settled_nth s i p Hset Hp)). auto.
  - apply load_spec. unfold pending_saved. rewrite map_length. auto.
  - unfold settled. rewrite Hall. apply Forall_map, Forall_forall. intros q _. apply commit_settled.
  - split; assumption.
  - rewrite CF. replace (forallb _ (map fst l)) with true; [apply andb_true_r|]. symmetry.
    apply forallb_forall. intros i _.
    destruct (nth_error ps i) eqn:Eq, (nth_error tbl i) eqn:Ef; eauto using fires_ok.
Qed.

(* nothing in flight, and the file is exactly what the next start will load: the saved values *)
Definition inv (tbl : table) (s : st) : Prop :=
  wf_state tbl s /\ settled s /\ s_file s = FGood (bases s) /\ load tbl (s_file s) = Ok (bases s).

Definition docs_wf (ops : list op) : Prop :=
  forall m fault wlen, In (OUpdate (Some m) fault wlen) ops -> wf_jmap m = true.

(* the command-line overrides of the history do not themselves bring a listener down *)
Definition harmless (tbl : table) (ops : list op) : bool :=
  forallb (fun o => match o with
                    | OOverride i v => match nth_error tbl i with Some f => listener_ok (f_path f) v | None => true end
                    | _ => true
                    end) ops.

Lemma fresh_inv tbl vs f : load tbl f = Ok vs -> inv tbl (fresh vs f) /\ s_alive (fresh vs f) = true.
Proof.
  intros Hload. pose proof Hload as (-> & Hl & _)%load_spec.
  unfold inv, wf_state, fresh, settled, bases. cbn [s_props s_log s_file s_alive].
  rewrite !map_length, map_map, (map_id vs : map (fun x => cp_marshal (cp_new x)) vs = vs).
  repeat split; auto.
  apply Forall_map, Forall_forall. reflexivity.
Qed.

Theorem start_inv tbl f :
  load tbl (FGood (defaults tbl)) = Ok (defaults tbl) ->
  inv tbl (start tbl f) /\ s_alive (start tbl f) = true.
Proof.
  intros Hdef. unfold ConfigTxn.start. destruct (load tbl f) as [vs| |] eqn:E; apply fresh_inv; assumption.
Qed.

Lemma override_inv tbl s i v :
  inv tbl s -> inv tbl (override tbl s i v) /\
  s_alive (override tbl s i v) =
  s_alive s && match nth_error tbl i with Some f => listener_ok (f_path f) v | None => true end.
Proof.
  intros ((Hlp & Hll) & Hset & Hfile & Hload). unfold override.
  destruct (nth_error tbl i) as [f|] eqn:Ef.
  - destruct (nth_error_aligned tbl (s_props s) i f Hlp Ef) as [p ->].
    split; [|reflexivity]. unfold inv, wf_state, settled, bases in *. cbn [s_props s_log s_file].
    (* an override leaves what is saved and what is staged as they were *)
    rewrite !length_upd_nth, (map_upd_nth_same cp_marshal) by (intros [c [o|]]; reflexivity).
    repeat split; auto. apply Forall_upd_nth; auto.
  - rewrite andb_true_r. destruct (nth_error (s_props s) i); unfold inv, wf_state; auto.
Qed.

Lemma update_opt_inv tbl s doc fault wlen :
  table_ok tbl = true -> inv tbl s -> (forall m, doc = Some m -> wf_jmap m = true) ->
  exists s' stt, update_opt tbl s doc fault wlen = Ok (s', stt) /\ inv tbl s' /\ s_alive s' = s_alive s.
Proof.
  intros Htbl Hinv Hwf. destruct doc as [m|]; cbn; [|exists s, Failed; auto].
  destruct Hinv as (Hwfs & Hset & Hfile & Hload).
  destruct (update_cases tbl s m fault wlen) as [E|(_ & _ & _ & E)]; rewrite E; eexists _, _; (split; [reflexivity|]).
  - rewrite refused_settled by exact Hset. unfold inv. auto.
  - destruct (accept_exact _ _ _ _ _ _ _ Htbl (Hwf m eq_refl) Hwfs Hset E) as (_ & A & B & _ & _ & C & D & F);
      [destruct (s_restart _); discriminate|]. unfold inv. auto.
Qed.

Theorem history_inv tbl : table_ok tbl = true ->
  forall ops s, inv tbl s -> docs_wf ops ->
  exists s', run tbl s ops = Ok s' /\ inv tbl s' /\ s_alive s' = s_alive s && harmless tbl ops.
Proof.
  intros Htbl. induction ops as [|o ops IH]; intros s Hinv Hdocs.
  - exists s. cbn. rewrite andb_true_r. auto.
  - assert (Hdocs' : docs_wf ops).
    { intros m fault wlen Hin. eapply Hdocs. right. exact Hin. }
    destruct o as [doc fault wlen|i v]; cbn [ConfigTxn.run ConfigTxn.step harmless forallb].
    + destruct (update_opt_inv tbl s doc fault wlen Htbl Hinv) as (s1 & stt & E & Hinv1 & Hal).
      { intros m ->. eapply Hdocs. left. reflexivity. }
      rewrite E. cbn [res_bind].
      destruct (IH s1 Hinv1 Hdocs') as (s' & Hr & Hi & Ha). exists s'. split; [exact Hr|split; [exact Hi|]].
      rewrite Ha, Hal. reflexivity.
    + cbn [res_bind]. destruct (override_inv tbl s i v Hinv) as [Hinv1 Hal].
      destruct (IH _ Hinv1 Hdocs') as (s' & Hr & Hi & Ha). exists s'. split; [exact Hr|split; [exact Hi|]].
      rewrite Ha, Hal. fold (harmless tbl ops). rewrite andb_assoc. reflexivity.
Qed.

Theorem history_from_start tbl :
  table_ok tbl = true ->
  load tbl (FGood (defaults tbl)) = Ok (defaults tbl) ->
  forall (f0 : file) (ops : list op), docs_wf ops ->
  exists s, run tbl (start tbl f0) ops = Ok s /\ inv tbl s /\ s_alive s = harmless tbl ops.
Proof.
  intros Htbl Hdef f0 ops Hdocs.
  destruct (start_inv tbl f0 Hdef) as [Hinv Halive].
  destruct (history_inv tbl Htbl ops _ Hinv Hdocs) as (s & Hr & Hi & Ha).
  exists s. rewrite Halive in Ha. exact (conj Hr (conj Hi Ha)).
Qed.

(* update_opt_total as Properties/C16.v and C18.v cite it: the configuration slice of C16 *)
Definition config_update_total := update_opt_total.

End Txn.
