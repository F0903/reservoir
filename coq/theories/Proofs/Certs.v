(* C11 — proofs about the leaf-certificate cache (Model/Certs.v): net.SplitHostPort returns the
   host text of the target; one sequential call, through its four outcomes ([get_cert_view]);
   concurrent callers, through an invariant per program point ([linv]) and one per host ([host_ok]). *)
From Reservoir Require Import Base.Prelude Model.Certs.

Lemma contains_false c s : contains c s = false <-> ~ In c s.
Proof.
  unfold contains. induction s as [|x s IH]; cbn; [intuition congruence|].
  rewrite orb_false_iff, IH, Z.eqb_neq. tauto.
Qed.

Lemma span_not_app c a r : ~ In c a -> span_not c (a ++ c :: r) = (a, Some r).
Proof.
  induction a as [|x a IH]; cbn; intros H.
  - rewrite Z.eqb_refl. reflexivity.
  - destruct (Z.eqb_spec x c); [tauto|]. rewrite IH by tauto. reflexivity.
Qed.

Lemma span_not_spec c s a r : span_not c s = (a, Some r) -> s = a ++ c :: r /\ ~ In c a.
Proof.
  revert a. induction s as [|x s IH]; cbn; intros a; [discriminate|].
  destruct (Z.eqb_spec x c) as [->|E].
  - intros [= <- <-]. split; [reflexivity|intros []].
  - destruct (span_not c s) as [a' b']. intros [= <- ->].
    destruct (IH a' eq_refl) as [-> Hn]. split; [reflexivity|]. intros [|]; auto.
Qed.

Lemma span_last_colon before port :
  ~ In COLON port -> span_not COLON (rev (before ++ COLON :: port)) = (rev port, Some (rev before)).
Proof.
  intros H. rewrite rev_app_distr. cbn. rewrite <- app_assoc. apply span_not_app.
  rewrite <- in_rev. exact H.
Qed.

Definition plain (s : str) : Prop := ~ In COLON s /\ ~ In LBRACK s /\ ~ In RBRACK s.

Theorem split_name_port name port :
  plain name -> plain port -> split_host_port (name ++ COLON :: port) = Some (name, port).
Proof.
  intros (Nc & Nl & Nr) (Pc & Pl & Pr). unfold split_host_port.
  rewrite span_last_colon, !rev_involutive by exact Pc.
  apply contains_false in Nc.
  assert (Hl : contains LBRACK (name ++ COLON :: port) = false)
    by (apply contains_false; rewrite in_app_iff; intros [H|[H|H]]; auto; discriminate).
  assert (Hr : contains RBRACK (name ++ COLON :: port) = false)
    by (apply contains_false; rewrite in_app_iff; intros [H|[H|H]]; auto; discriminate).
  rewrite Nc, Hl, Hr.
  destruct name as [|c name']; [reflexivity|]. cbn [app].
  destruct (Z.eqb_spec c LBRACK) as [->|]; [elim Nl; left|]; reflexivity.
Qed.

Theorem split_bracket inner port :
  ~ In LBRACK inner -> ~ In RBRACK inner -> plain port ->
  split_host_port (LBRACK :: inner ++ RBRACK :: COLON :: port) = Some (inner, port).
Proof.
  intros Il Ir (Pc & Pl & Pr). unfold split_host_port.
  change (LBRACK :: inner ++ RBRACK :: COLON :: port)
    with (LBRACK :: inner ++ [RBRACK] ++ COLON :: port) at 1.
  rewrite app_assoc, app_comm_cons, span_last_colon, !rev_involutive by exact Pc.
  rewrite Z.eqb_refl, span_not_app, str_eqb_refl by exact Ir.
  assert (Hl : contains LBRACK (inner ++ RBRACK :: COLON :: port) = false)
    by (apply contains_false; rewrite in_app_iff; intros [H|[H|[H|H]]]; auto; discriminate).
  assert (Hr : contains RBRACK (COLON :: port) = false)
    by (apply contains_false; intros [H|H]; auto; discriminate).
  rewrite Hl, Hr. reflexivity.
Qed.

Theorem split_host_port_shape hp h p :
  split_host_port hp = Some (h, p) ->
  hp = h ++ COLON :: p \/ hp = LBRACK :: h ++ RBRACK :: COLON :: p.
Proof.
  unfold split_host_port.
  destruct (span_not COLON (rev hp)) as [rport [rbefore|]] eqn:Es; [|discriminate].
  apply span_not_spec in Es. destruct Es as [Erev _].
  apply (f_equal (@rev Z)) in Erev. rewrite rev_involutive, rev_app_distr in Erev.
  cbn in Erev. rewrite <- app_assoc in Erev.
  destruct hp as [|c rest]; [discriminate|]. destruct (Z.eqb_spec c LBRACK) as [->|_].
  - destruct (span_not RBRACK rest) as [inner [after|]] eqn:Er; [|discriminate].
    apply span_not_spec in Er. destruct Er as [-> _].
    destruct (str_eqb_spec after (COLON :: rev rport)) as [->|]; [|discriminate].
    repeat (destruct (contains _ _); [discriminate|]). intros [= <- <-]. right. reflexivity.
  - repeat (destruct (contains _ _); [discriminate|]). intros [= <- <-]. left. exact Erev.
Qed.

Lemma lookup_remove h h' m : lookup h' (remove h m) = if str_eqb h h' then None else lookup h' m.
Proof.
  induction m as [|[k v] m IH]; cbn.
  - destruct (str_eqb h h'); reflexivity.
  - destruct (str_eqb_spec k h) as [->|Hk]; cbn; rewrite IH.
    + destruct (str_eqb h h'); reflexivity.
    + destruct (str_eqb_spec h h') as [<-|]; [|reflexivity].
      destruct (str_eqb_spec k h); [contradiction|reflexivity].
Qed.

Lemma lookup_set h h' c m : lookup h' (set h c m) = if str_eqb h h' then Some c else lookup h' m.
Proof. cbn. rewrite lookup_remove. destruct (str_eqb h h'); reflexivity. Qed.

Lemma remove_absent h m : lookup h m = None -> remove h m = m.
Proof.
  induction m as [|[k v] m IH]; cbn; [reflexivity|].
  destruct (str_eqb k h); [discriminate|]. intros H. rewrite (IH H). reflexivity.
Qed.

Lemma nth_error_upd_eq {A} i j (x : A) l :
  nth_error (upd i x l) j = if Nat.eqb i j then option_map (fun _ => x) (nth_error l j) else nth_error l j.
Proof.
  revert i j. induction l as [|y l IH]; intros [|i] [|j]; cbn; try reflexivity; [|apply IH].
  destruct (Nat.eqb i j); reflexivity.
Qed.

Lemma nth_error_upd {A} i j (x : A) l p :
  nth_error (upd i x l) j = Some p ->
  (i = j /\ p = x) \/ (i <> j /\ nth_error l j = Some p).
Proof.
  rewrite nth_error_upd_eq. destruct (Nat.eqb_spec i j) as [->|Hn]; [|auto].
  destruct (nth_error l j); intros [= <-]. auto.
Qed.

Lemma Forall2_nth_l {A B} (R : A -> B -> Prop) l1 l2 i a :
  Forall2 R l1 l2 -> nth_error l1 i = Some a -> exists b, nth_error l2 i = Some b /\ R a b.
Proof.
  intros H. revert i. induction H as [|a0 b0 l1 l2 Hab H IH]; intros [|i]; cbn; try discriminate.
  - intros [= <-]. eauto.
  - apply IH.
Qed.

Section WithParseIP.
  Variable parse_ip : str -> option str.

  Notation san_of := (san_of parse_ip).
  Notation creatable := (creatable parse_ip).
  Notation mk_cert := (mk_cert parse_ip).
  Notation get_cert := (get_cert parse_ip).
  Notation step := (step parse_ip).
  Notation run := (run parse_ip).
  Notation pc_step := (pc_step parse_ip).
  Notation lstep := (lstep parse_ip).
  Notation lrun := (lrun parse_ip).

  (* what is true of every cached certificate, at clock [now] with [next] identities used *)
  Definition entry_ok (now next : Z) (h : str) (c : cert) : Prop :=
    c_san c = san_of h /\ c_id c < next /\ c_nb c <= now /\ c_na c = c_nb c + LIFETIME /\
    creatable h = true.

  Definition cache_ok (now next : Z) (m : cache) : Prop :=
    forall h c, lookup h m = Some c -> entry_ok now next h c.

  Definition state_ok (s : state) : Prop := cache_ok (s_now s) (s_next s) (s_cache s).

  Lemma entry_ok_mono {now next now' next' h c} :
    now <= now' -> next <= next' -> entry_ok now next h c -> entry_ok now' next' h c.
  Proof. unfold entry_ok. intros. intuition lia. Qed.

  Lemma cache_ok_mono {now next now' next' m} :
    now <= now' -> next <= next' -> cache_ok now next m -> cache_ok now' next' m.
  Proof. intros H1 H2 H h c Hl. exact (entry_ok_mono H1 H2 (H h c Hl)). Qed.

  Lemma cache_ok_remove now next h m : cache_ok now next m -> cache_ok now next (remove h m).
  Proof. intros H h' c. rewrite lookup_remove. destruct (str_eqb h h'); [discriminate|apply H]. Qed.

  Lemma cache_ok_set now next h c m :
    cache_ok now next m -> entry_ok now next h c -> cache_ok now next (set h c m).
  Proof.
    intros H Hc h' c'. rewrite lookup_set.
    destruct (str_eqb_spec h h') as [<-|]; [intros [= <-]; exact Hc|apply H].
  Qed.

  Lemma mk_cert_entry_ok now next {h} :
    creatable h = true -> entry_ok now (next + 1) h (mk_cert next h now).
  Proof. intros Hc. unfold entry_ok, mk_cert. simpl. repeat split; auto; lia. Qed.

  Lemma mk_cert_valid id h now : valid_at now (mk_cert id h now).
  Proof. unfold valid_at, mk_cert, LIFETIME. simpl. lia. Qed.

  Lemma init_ok : state_ok init.
  Proof. intros h c H. discriminate. Qed.

  (* what a caller for the target [hp] may be handed at the instant [t] *)
  Definition ret_ok (hp : str) (t : Z) (r : res cert) : Prop :=
    match r with
    | Ok c => (exists h p, split_host_port hp = Some (h, p) /\
                 (hp = h ++ COLON :: p \/ hp = LBRACK :: h ++ RBRACK :: COLON :: p) /\
                 c_san c = san_of h) /\
              valid_at t c /\ c_na c = c_nb c + LIFETIME
    | Err => split_host_port hp = None \/
             exists h p, split_host_port hp = Some (h, p) /\ creatable h = false
    | Panic => False
    end.

  Lemma entry_ret_ok {hp h p now next c t} :
    split_host_port hp = Some (h, p) -> entry_ok now next h c -> valid_at t c -> ret_ok hp t (Ok c).
  Proof.
    intros Hs (Hsan & _ & _ & Hna & _) Hv. split; [exists h, p|split; [exact Hv|exact Hna]].
    split; [exact Hs|split; [apply split_host_port_shape, Hs|exact Hsan]].
  Qed.

  (* The four ways one sequential call ends: the target is refused; the host's entry is
     still good and is returned; otherwise the entry (stale, if any) goes, and either the
     name cannot be put in a certificate or a new one is issued and stored. *)
  Inductive get_cert_view (hp : str) (s : state) : state -> res cert -> Prop :=
  | gc_refused : split_host_port hp = None -> get_cert_view hp s s Err
  | gc_cached h p c :
      split_host_port hp = Some (h, p) -> lookup h (s_cache s) = Some c -> s_now s <= c_na c ->
      get_cert_view hp s s (Ok c)
  | gc_unnamed h p :
      split_host_port hp = Some (h, p) ->
      (forall c, lookup h (s_cache s) = Some c -> c_na c < s_now s) -> creatable h = false ->
      get_cert_view hp s {| s_now := s_now s; s_cache := remove h (s_cache s); s_next := s_next s |} Err
  | gc_issued h p :
      split_host_port hp = Some (h, p) ->
      (forall c, lookup h (s_cache s) = Some c -> c_na c < s_now s) -> creatable h = true ->
      get_cert_view hp s
        {| s_now := s_now s; s_cache := set h (mk_cert (s_next s) h (s_now s)) (remove h (s_cache s));
           s_next := s_next s + 1 |}
        (Ok (mk_cert (s_next s) h (s_now s))).

  Lemma get_cert_cases {hp s s' r} : get_cert hp s = (s', r) -> get_cert_view hp s s' r.
  Proof.
    unfold Certs.get_cert. destruct (split_host_port hp) as [[h p]|] eqn:Es.
    2:{ intros [= <- <-]. apply gc_refused, Es. }
    (* with no entry for [h], removing it changes nothing *)
    assert (Miss : forall m, m = remove h (s_cache s) ->
              (forall c, lookup h (s_cache s) = Some c -> c_na c < s_now s) ->
              fresh parse_ip s h m = (s', r) -> get_cert_view hp s s' r).
    { intros m -> Hst. unfold fresh. destruct (creatable h) eqn:Ec; intros [= <- <-];
        [eapply gc_issued|eapply gc_unnamed]; eassumption. }
    destruct (lookup h (s_cache s)) as [c|] eqn:El.
    - unfold expired. destruct (Z.ltb_spec (c_na c) (s_now s)) as [He|He].
      + apply (Miss _ eq_refl). intros c' [= <-]. exact He.
      + intros [= <- <-]. exact (gc_cached _ _ h p c Es El He).
    - apply Miss; [symmetry; apply remove_absent, El|discriminate].
  Qed.

  Lemma get_cert_hit {hp s h p c} :
    split_host_port hp = Some (h, p) -> lookup h (s_cache s) = Some c -> s_now s <= c_na c ->
    get_cert hp s = (s, Ok c).
  Proof.
    intros Hs Hl He. unfold Certs.get_cert, expired. rewrite Hs, Hl.
    destruct (Z.ltb_spec (c_na c) (s_now s)); [lia|reflexivity].
  Qed.

  Lemma get_cert_clock {hp s s' r} :
    get_cert hp s = (s', r) -> s_now s' = s_now s /\ s_next s <= s_next s'.
  Proof. intros H. destruct (get_cert_cases H); cbn; lia. Qed.

  Lemma get_cert_ok {hp s s' r} : state_ok s -> get_cert hp s = (s', r) -> state_ok s'.
  Proof.
    intros Hok H. destruct (get_cert_cases H) as [| |h p _ _ _|h p _ _ Hc]; try exact Hok.
    - apply cache_ok_remove, Hok.
    - apply cache_ok_set; [|apply mk_cert_entry_ok, Hc].
      apply cache_ok_remove. refine (cache_ok_mono _ _ Hok); cbn; lia.
  Qed.

  Lemma get_cert_ret {hp s s' r} : state_ok s -> get_cert hp s = (s', r) -> ret_ok hp (s_now s) r.
  Proof.
    intros Hok H. destruct (get_cert_cases H) as [Hs|h p c Hs Hl He|h p Hs _ Hc|h p Hs _ Hc].
    - left. exact Hs.
    - pose proof (Hok h c Hl) as Hc. apply (entry_ret_ok Hs Hc). split; [apply Hc|exact He].
    - right. exists h, p. auto.
    - exact (entry_ret_ok Hs (mk_cert_entry_ok _ _ Hc) (mk_cert_valid _ _ _)).
  Qed.

  Lemma get_cert_stored {hp s s' c} :
    get_cert hp s = (s', Ok c) ->
    exists h p, split_host_port hp = Some (h, p) /\ lookup h (s_cache s') = Some c.
  Proof.
    intros H. pose proof (get_cert_cases H) as V.
    inversion V as [|h p c0 Hs Hl _| |h p Hs _ _]; subst; exists h, p; split; auto.
    cbn [s_cache]. rewrite lookup_set, str_eqb_refl. reflexivity.
  Qed.

  Lemma step_ok s o : state_ok s -> state_ok (step s o) /\ s_now s <= s_now (step s o) /\ s_next s <= s_next (step s o).
  Proof.
    intros H. destruct o as [hp|d]; cbn [Certs.step].
    - destruct (get_cert hp s) as [s' r] eqn:E. destruct (get_cert_clock E).
      split; [exact (get_cert_ok H E)|cbn; lia].
    - split; [refine (cache_ok_mono _ _ H)|]; cbn; lia.
  Qed.

  Lemma run_ok ops s : state_ok s -> state_ok (run ops s) /\ s_now s <= s_now (run ops s) /\ s_next s <= s_next (run ops s).
  Proof.
    revert s. induction ops as [|o ops IH]; intros s H; simpl; [split; [exact H|lia]|].
    destruct (step_ok s o H) as (A & B & C). destruct (IH _ A) as (A' & B' & C').
    split; [exact A'|lia].
  Qed.

  Lemma reach_ok ops : state_ok (run ops init).
  Proof. apply run_ok, init_ok. Qed.

  Lemma reach_ret ops hp s' r :
    get_cert hp (run ops init) = (s', r) -> ret_ok hp (s_now (run ops init)) r.
  Proof. apply get_cert_ret, reach_ok. Qed.

  Lemma get_cert_served hp s h p :
    split_host_port hp = Some (h, p) -> creatable h = true -> exists c, snd (get_cert hp s) = Ok c.
  Proof.
    intros Hs Hc. destruct (get_cert hp s) as [s' r] eqn:E.
    destruct (get_cert_cases E); cbn; eauto; congruence.
  Qed.

  (* The entry of host [h] after [c] was stored there with [n0] identities used: it is [c]
     until [c] expires, and whatever is there after that was issued later. *)
  Definition tracks (h : str) (c : cert) (n0 : Z) (s : state) : Prop :=
    n0 <= s_next s /\
    (lookup h (s_cache s) = Some c \/
     c_na c < s_now s /\ forall c', lookup h (s_cache s) = Some c' -> n0 <= c_id c').

  Lemma step_tracks h c n0 s o : tracks h c n0 s -> tracks h c n0 (step s o).
  Proof.
    intros [Hn Hc]. destruct o as [hp|d]; cbn [Certs.step].
    2:{ split; [exact Hn|]. cbn. destruct Hc as [Hc|[He Hc]]; [left; exact Hc|right; split; [lia|exact Hc]]. }
    destruct (get_cert hp s) as [s' r] eqn:E.
    destruct (get_cert_cases E) as [| |h0 p _ Hst _|h0 p _ Hst _]; try (split; assumption).
    (* the call found no good entry for [h0]: other hosts keep theirs; if [h0] is [h] then [c]
       has expired, and what is stored now, if anything, is new *)
    all: split; [cbn; lia|]; cbn [fst s_cache s_now].
    all: rewrite ?lookup_set, lookup_remove; destruct (str_eqb_spec h0 h) as [->|]; [right|exact Hc].
    all: (split; [destruct Hc as [Hc|[He _]]; [exact (Hst _ Hc)|exact He]|]).
    - discriminate.
    - intros c' [= <-]. exact Hn.
  Qed.

  Lemma run_tracks ops h c n0 s : tracks h c n0 s -> tracks h c n0 (run ops s).
  Proof.
    revert s. induction ops as [|o ops IH]; intros s H; [exact H|]. apply IH, step_tracks, H.
  Qed.

  Theorem reuse_until_expiry ops0 hp s1 c ops :
    get_cert hp (run ops0 init) = (s1, Ok c) ->
    s_now (run ops s1) <= c_na c ->
    get_cert hp (run ops s1) = (run ops s1, Ok c).
  Proof.
    intros H Hna. destruct (get_cert_stored H) as (h & p & Hs & Hl).
    destruct (run_tracks ops h c (s_next s1) s1) as [_ [Hl'|[He _]]]; [split; [lia|left; exact Hl]| |lia].
    exact (get_cert_hit Hs Hl' Hna).
  Qed.

  Theorem replaced_after_expiry ops0 hp s1 c ops s3 c' :
    get_cert hp (run ops0 init) = (s1, Ok c) ->
    c_na c < s_now (run ops s1) ->
    get_cert hp (run ops s1) = (s3, Ok c') ->
    c_id c' <> c_id c /\ valid_at (s_now (run ops s1)) c'.
  Proof.
    intros H Hna H2. destruct (get_cert_stored H) as (h & p & Hs & Hl).
    pose proof (get_cert_ok (reach_ok ops0) H) as Hok1.
    split; [|apply (get_cert_ret (proj1 (run_ok ops s1 Hok1)) H2)].
    destruct (Hok1 h c Hl) as (_ & Hid & _).
    destruct (run_tracks ops h c (s_next s1) s1) as [Hn Ht]; [split; [lia|left; exact Hl]|].
    (* [c'] is the entry found, which is not [c] since that has expired, or is issued now *)
    pose proof (get_cert_cases H2) as V.
    inversion V as [|h' p' c0 Hs' Hl' He| |h' p' Hs' _ _]; subst.
    - rewrite Hs in Hs'. injection Hs' as <- <-.
      destruct Ht as [Ht|[_ Ht]]; [|specialize (Ht _ Hl'); lia].
      rewrite Hl' in Ht. injection Ht as ->. lia.
    - cbn. lia.
  Qed.

  (* what a caller for target [hp] may hold at each program point *)
  Definition thread_ok (now next : Z) (hp : str) (p : pc) : Prop :=
    match p with
    | PStart hp' => hp' = hp
    | PDelete h | PCreate h => exists port, split_host_port hp = Some (h, port)
    | PSet h c => (exists port, split_host_port hp = Some (h, port)) /\ entry_ok now next h c
    | PDone r t => ret_ok hp t r /\ t <= now
    end.

  Lemma thread_ok_mono {now next now' next' hp p} :
    now <= now' -> next <= next' -> thread_ok now next hp p -> thread_ok now' next' hp p.
  Proof.
    intros H1 H2. destruct p; cbn; auto; intros [A B]; (split; [exact A|]).
    - exact (entry_ok_mono H1 H2 B).
    - lia.
  Qed.

  Lemma pc_step_ok {now n m hp p p' m' n'} :
    cache_ok now n m -> thread_ok now n hp p -> pc_step now p m n = (p', m', n') ->
    cache_ok now n' m' /\ n <= n' /\ thread_ok now n' hp p'.
  Proof.
    intros Hm Ht. destruct p as [hp'|h|h|h c|r t]; cbn in Ht |- *.
    - subst hp'. unfold expired. destruct (split_host_port hp) as [[h port]|] eqn:Es;
        [destruct (lookup h m) as [c|] eqn:El; [destruct (Z.ltb_spec (c_na c) now) as [He|He]|]|];
        intros [= <- <- <-]; (split; [exact Hm|split; [lia|cbn]]); eauto.
      + pose proof (Hm h c El) as Hc. split; [|lia].
        apply (entry_ret_ok Es Hc). split; [apply Hc|exact He].
      + split; [left; exact Es|lia].
    - intros [= <- <- <-]. split; [apply cache_ok_remove, Hm|split; [lia|exact Ht]].
    - destruct (creatable h) eqn:Ec; intros [= <- <- <-].
      + split; [refine (cache_ok_mono _ _ Hm); lia|]. split; [lia|]. split; [exact Ht|apply mk_cert_entry_ok, Ec].
      + split; [exact Hm|]. split; [lia|]. destruct Ht as [port Hs]. split; [right; exists h, port; auto|lia].
    - intros [= <- <- <-]. destruct Ht as [[port Hs] Hc]. split; [apply cache_ok_set; assumption|]. split; [lia|].
      split; [apply (entry_ret_ok Hs Hc)|apply Hc].
      assert (E : c_na c = c_nb c + LIFETIME) by apply Hc. unfold valid_at, LIFETIME in *. lia.
    - intros [= <- <- <-]. split; [exact Hm|split; [lia|exact Ht]].
  Qed.

  Definition threads_ok (now next : Z) (hps : list str) (ps : list pc) : Prop :=
    forall i p, nth_error ps i = Some p ->
    exists hp, nth_error hps i = Some hp /\ thread_ok now next hp p.

  Lemma threads_ok_mono {now next now' next' hps ps} :
    now <= now' -> next <= next' -> threads_ok now next hps ps -> threads_ok now' next' hps ps.
  Proof.
    intros H1 H2 H i p Hi. destruct (H i p Hi) as (hp & Hhp & Hp).
    exists hp. split; [exact Hhp|exact (thread_ok_mono H1 H2 Hp)].
  Qed.

  Definition linv (hps : list str) (st : lstate) : Prop :=
    cache_ok (l_now st) (l_next st) (l_cache st) /\
    threads_ok (l_now st) (l_next st) hps (l_threads st).

  Lemma lstep_inv hps st a : linv hps st -> linv hps (lstep st a) /\ l_now st <= l_now (lstep st a).
  Proof.
    intros [Hc Ht]. destruct a as [j dt]. unfold Certs.lstep.
    set (now := l_now st + Z.max 0 dt).
    assert (Hnow : l_now st <= now) by (unfold now; lia).
    (* the clock advances, then thread [j] acts *)
    apply (cache_ok_mono Hnow (Z.le_refl _)) in Hc.
    apply (threads_ok_mono Hnow (Z.le_refl _)) in Ht.
    destruct (nth_error (l_threads st) j) as [p|] eqn:En; [|split; [split|]; assumption].
    destruct (Ht j p En) as (hpj & Hhpj & Hpj).
    destruct (pc_step now p (l_cache st) (l_next st)) as [[p' m'] n'] eqn:Es.
    destruct (pc_step_ok Hc Hpj Es) as (A & B & C).
    split; [|exact Hnow]. split; [exact A|]. cbn [l_now l_next l_threads].
    intros i q Hi. apply nth_error_upd in Hi. destruct Hi as [[<- ->]|[_ Hi]].
    - exists hpj. auto.
    - exact (threads_ok_mono (Z.le_refl _) B Ht i q Hi).
  Qed.

  Lemma lrun_inv hps sched st :
    linv hps st -> linv hps (lrun sched st) /\ l_now st <= l_now (lrun sched st).
  Proof.
    revert st. induction sched as [|a sched IH]; intros st H; simpl.
    - split; [assumption|lia].
    - destruct (lstep_inv hps st a H) as (A & B). destruct (IH _ A) as (A' & B'). split; [assumption|lia].
  Qed.

  Lemma linit_inv s hps : state_ok s -> linv hps (linit s hps).
  Proof.
    intros H. split; [exact H|]. intros i p. cbn. rewrite nth_error_map.
    destruct (nth_error hps i) as [hp|]; [|discriminate]. intros [= <-]. exists hp. split; reflexivity.
  Qed.

  Lemma reach_thread_ok ops hps sched i hp p :
    let st := lrun sched (linit (run ops init) hps) in
    nth_error hps i = Some hp -> nth_error (l_threads st) i = Some p ->
    thread_ok (l_now st) (l_next st) hp p /\ s_now (run ops init) <= l_now st.
  Proof.
    intros st Hhp Hp. destruct (lrun_inv hps sched _ (linit_inv _ hps (reach_ok ops))) as [[_ Ht] Hnow].
    destruct (Ht i p Hp) as (hp' & Hhp' & Hok). rewrite Hhp in Hhp'. injection Hhp' as <-.
    split; [exact Hok|exact Hnow].
  Qed.

  Definition for_host (hps : list str) (i : nat) (h : str) : Prop :=
    exists hp port, nth_error hps i = Some hp /\ split_host_port hp = Some (h, port).

  Definition pending_pc (h : str) (p : pc) : Prop :=
    p = PDelete h \/ p = PCreate h \/ exists c, p = PSet h c.

  Lemma pending_pc_not_done h r t : ~ pending_pc h (PDone r t).
  Proof. intros [H|[H|[c H]]]; discriminate. Qed.

  (* Host [h], with [m0] the cache the callers started from: its entry is the one of [m0] or
     was returned to a caller for [h]; and while a host that can be certified has no entry,
     not all its callers have returned (so in the race "A deletes what B just stored" A is
     still on its way to store again). *)
  Definition host_ok (m0 : cache) (hps : list str) (st : lstate) (h : str) : Prop :=
    match lookup h (l_cache st) with
    | Some c => lookup h m0 = Some c \/
                exists i t, for_host hps i h /\ nth_error (l_threads st) i = Some (PDone (Ok c) t)
    | None => creatable h = true -> forall i, for_host hps i h ->
              exists i' p, for_host hps i' h /\ nth_error (l_threads st) i' = Some p /\ is_done p = false
    end.

  Lemma pc_step_entry {now p m n p' m' n'} h :
    pc_step now p m n = (p', m', n') ->
    lookup h m' = lookup h m \/
    p = PDelete h /\ p' = PCreate h /\ lookup h m' = None \/
    exists c, p = PSet h c /\ p' = PDone (Ok c) (c_nb c) /\ lookup h m' = Some c.
  Proof.
    destruct p as [hp|h0|h0|h0 c|r t]; cbn.
    - destruct (split_host_port hp) as [[h1 port]|]; [destruct (lookup h1 m) as [c|]; [destruct (expired now c)|]|];
        intros [= <- <- <-]; left; reflexivity.
    - intros [= <- <- <-]. rewrite lookup_remove.
      destruct (str_eqb_spec h0 h) as [->|]; [right; left; auto|left; reflexivity].
    - destruct (creatable h0); intros [= <- <- <-]; left; reflexivity.
    - intros [= <- <- <-]. rewrite lookup_set.
      destruct (str_eqb_spec h0 h) as [->|]; [right; right; exists c; auto|left; reflexivity].
    - intros [= <- <- <-]. left. reflexivity.
  Qed.

  (* a caller for a host [h] that can be certified does not return while [h] has no entry.
     [thread_ok] only tells which host [p] works for, so its clock need not be that of the step:
     [lstep] advances the clock before the thread moves, and [linv] speaks of the clock before. *)
  Lemma pc_step_busy {now next now' n m hp h port p p' m' n'} :
    thread_ok now next hp p -> split_host_port hp = Some (h, port) -> creatable h = true ->
    pc_step now' p m n = (p', m', n') -> lookup h m' = None -> is_done p = false -> is_done p' = false.
  Proof.
    intros Ht Hs Hc. destruct p as [hp'|h0|h0|h0 c|r t]; cbn in Ht |- *.
    - subst hp'. rewrite Hs. destruct (lookup h m) as [c|] eqn:El; [destruct (expired now' c)|];
        intros [= <- <- <-]; auto. congruence.
    - intros [= <- <- <-]. auto.
    - destruct Ht as [port' Hs']. rewrite Hs in Hs'. injection Hs' as <- <-. rewrite Hc.
      intros [= <- <- <-]. auto.
    - destruct Ht as [[port' Hs'] _]. rewrite Hs in Hs'. injection Hs' as <- <-.
      intros [= <- <- <-]. rewrite lookup_set, str_eqb_refl. discriminate.
    - discriminate.
  Qed.

  Lemma lstep_host_ok m0 hps st a h :
    linv hps st -> host_ok m0 hps st h -> host_ok m0 hps (lstep st a) h.
  Proof.
    intros [_ Ht] H. destruct a as [j dt]. unfold Certs.lstep.
    destruct (nth_error (l_threads st) j) as [p|] eqn:En; [|exact H].
    destruct (Ht j p En) as (hpj & Hhpj & Hpj).
    destruct (pc_step _ p (l_cache st) (l_next st)) as [[p' m'] n'] eqn:Es.
    unfold host_ok in *. cbn [l_cache l_threads].
    assert (Hj : nth_error (upd j p' (l_threads st)) j = Some p')
      by (rewrite nth_error_upd_eq, Nat.eqb_refl, En; reflexivity).
    assert (Hother : forall i, j <> i -> nth_error (upd j p' (l_threads st)) i = nth_error (l_threads st) i)
      by (intros i Hi; rewrite nth_error_upd_eq; destruct (Nat.eqb_spec j i); [contradiction|reflexivity]).
    destruct (pc_step_entry h Es) as [E|[(-> & -> & E)|(c & -> & -> & E)]]; rewrite E.
    - revert H. destruct (lookup h (l_cache st)) as [c|].
      + (* who has returned stays so *)
        intros [A|(i & t & Hf & Hi)]; [left; exact A|].
        right. exists i, t. split; [exact Hf|]. destruct (Nat.eq_dec j i) as [->|Hij].
        * rewrite En in Hi. injection Hi as ->. injection Es as <- _ _. exact Hj.
        * rewrite Hother; assumption.
      + intros H Hcr i0 Hi0. destruct (H Hcr i0 Hi0) as (i & q & Hf & Hi & Hq).
        destruct (Nat.eq_dec j i) as [->|Hij].
        * exists i, p'. split; [exact Hf|]. split; [exact Hj|].
          rewrite En in Hi. injection Hi as <-. destruct Hf as (hp & port & Hhp & Hs).
          rewrite Hhpj in Hhp. injection Hhp as <-. exact (pc_step_busy Hpj Hs Hcr Es E Hq).
        * exists i, q. rewrite Hother; auto.
    - destruct Hpj as [port Hs]. intros _ _ _.
      exists j, (PCreate h). split; [exists hpj, port; auto|auto].
    - destruct Hpj as [[port Hs] _].
      right. exists j, (c_nb c). split; [exists hpj, port; auto|exact Hj].
  Qed.

  Lemma lrun_host_ok m0 hps sched st h :
    linv hps st -> host_ok m0 hps st h -> host_ok m0 hps (lrun sched st) h.
  Proof.
    revert st. induction sched as [|a sched IH]; intros st Hi H; [exact H|].
    apply IH; [apply lstep_inv, Hi|apply lstep_host_ok; assumption].
  Qed.

  Lemma linit_host_ok s hps h : host_ok (s_cache s) hps (linit s hps) h.
  Proof.
    unfold host_ok. cbn. destruct (lookup h (s_cache s)); [left; reflexivity|].
    intros _ i (hp & port & Hhp & Hs).
    exists i, (PStart hp). split; [exists hp, port; auto|]. rewrite nth_error_map, Hhp. auto.
  Qed.

  (* Whatever the interleaving: once every caller has returned, every host that was asked for
     (and can be named in a certificate) has a cached certificate, and that certificate was
     handed to one of the callers for this host, or is the one cached before they started. *)
  Theorem concurrent_cache_holds_one ops hps sched i hp h port :
    let s0 := run ops init in
    let st := lrun sched (linit s0 hps) in
    all_done st = true ->
    nth_error hps i = Some hp -> split_host_port hp = Some (h, port) -> creatable h = true ->
    exists c, lookup h (l_cache st) = Some c /\
      (lookup h (s_cache s0) = Some c \/
       exists i' t, for_host hps i' h /\ nth_error (l_threads st) i' = Some (PDone (Ok c) t)).
  Proof.
    intros s0 st Hdone Hhp Hs Hcr.
    pose proof (lrun_host_ok _ hps sched _ h (linit_inv s0 hps (reach_ok ops)) (linit_host_ok s0 hps h)) as H.
    unfold host_ok in H. fold st in H.
    destruct (lookup h (l_cache st)) as [c|]; [exists c; auto|].
    destruct (H Hcr i) as (i' & q & _ & Hq & Hnd); [exists hp, port; auto|].
    apply nth_error_In in Hq. unfold all_done in Hdone. rewrite forallb_forall in Hdone.
    rewrite (Hdone _ Hq) in Hnd. discriminate.
  Qed.

  Lemma lstep_solo now m n p :
    lstep {| l_now := now; l_cache := m; l_next := n; l_threads := [p] |} (O, 0) =
    let '(p', m', n') := pc_step now p m n in
    {| l_now := now; l_cache := m'; l_next := n'; l_threads := [p'] |}.
  Proof.
    unfold Certs.lstep. cbn [l_now l_cache l_next l_threads nth_error Z.max]. rewrite Z.add_0_r. reflexivity.
  Qed.

  (* a caller running alone is exactly the sequential function *)
  Theorem solo_refines_get_cert hp s :
    let st := lrun [(O, 0); (O, 0); (O, 0); (O, 0)] (linit s [hp]) in
    exists t, l_threads st = [PDone (snd (get_cert hp s)) t] /\
              l_cache st = s_cache (fst (get_cert hp s)) /\ l_next st = s_next (fst (get_cert hp s)).
  Proof.
    unfold Certs.get_cert, fresh, Certs.lrun, linit. cbn [fold_left map].
    (* decide the path of get_cert first, then let the caller take its four steps along it:
       normalising the four nested steps with the tests still open takes half a minute *)
    destruct (split_host_port hp) as [[h port]|] eqn:Eh;
      [destruct (lookup h (s_cache s)) as [c|] eqn:El; [destruct (expired (s_now s) c) eqn:Ee|]|];
      try destruct (creatable h) eqn:Ec.
    all: repeat (rewrite lstep_solo; cbn [Certs.pc_step]; rewrite ?Eh, ?El, ?Ee, ?Ec).
    all: eexists; repeat split.
  Qed.

End WithParseIP.
