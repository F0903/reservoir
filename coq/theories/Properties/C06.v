(* C06 — Revalidation uses the stored validators; 304 and 200 update the entry correctly.
   This file contains only statements; the proof of every theorem is [exact <lemma>].

   Model/Proxy.v: [proxy_step cfg now st rq answers flt] is one client request (no Range
   field) for one resource; [rq_hdr rq] holds the conditional fields the client sent (names
   0..3 = If-None-Match, If-Modified-Since, If-Match, If-Unmodified-Since, the "regular"
   conditionals; 4 = If-Range), [answers] the origin's results in order, [flt] the cache
   faults.  [ev_ups ev] are the requests the origin received during event [ev].
   [revalidates st rq flt now e]: [e] is stored, stale, readable and the request is a GET.
   [carries_validators e h]: If-None-Match = the saved ETag iff it is not empty,
   If-Modified-Since = the saved Last-Modified, no If-Match, no If-Unmodified-Since.
   [prov past e]: the body, ETag and Last-Modified of [e] are those of a 200 answer the
   origin gave during [past] (Last-Modified = the store time when that answer had none).

   Interpretation: If-Range is not one of "the conditional headers sent by the client ...
   forwarded in their place": it modifies a Range request and is passed on untouched. *)
From Reservoir Require Import Base.Prelude Base.Strings Model.Freshness Model.Proxy Proofs.Proxy.

(* Whatever regular conditionals the client sends, nothing changes: same upstream requests, same
   response, same entry afterwards. *)
Theorem C06_client_conditionals_ignored : forall cfg now st rq rq' answers flt,
  rq_meth rq = rq_meth rq' ->
  strip_regular (rq_hdr rq) = strip_regular (rq_hdr rq') ->
  proxy_step cfg now st rq answers flt = proxy_step cfg now st rq' answers flt.
Proof. exact step_ignores_client_conditionals. Qed.
Print Assumptions C06_client_conditionals_ignored.

(* In every history, for every request: each upstream request carries no regular conditional at
   all, or exactly the validators of the entry that was stored and stale when the request came
   in, and those are the validators of a 200 answer the origin gave earlier; a stale entry IS
   revalidated (the first upstream request carries them); other fields pass as the client sent them. *)
Theorem C06_validators : forall cfg0 now0 h evs1 ev evs2,
  events (init_state cfg0 now0) h = evs1 ++ ev :: evs2 ->
  Forall (fun u =>
            no_conditionals (u_hdr u)
            \/ exists e, revalidates (ev_before ev) (ev_rq ev) (ev_flt ev) (ev_now ev) e
                         /\ carries_validators e (u_hdr u) /\ prov evs1 e) (ev_ups ev)
  /\ (forall e, revalidates (ev_before ev) (ev_rq ev) (ev_flt ev) (ev_now ev) e ->
        exists u t, ev_ups ev = u :: t /\ carries_validators e (u_hdr u))
  /\ Forall (fun u => forall k, is_regular k = false -> get_field k (u_hdr u) = get_field k (rq_hdr (ev_rq ev))) (ev_ups ev).
Proof. exact validators_history. Qed.
Print Assumptions C06_validators.

(* A 304 keeps the stored entry - body, validators, store time - and moves its expiry to
   now + default_max_age; that entry is what the client is served (REVALIDATED); one upstream
   request was made, the conditional one. *)
Theorem C06_304 : forall cfg now e rq a rest flt,
  revalidates (Some e) rq flt now e ->
  f_vanish flt = false -> f_reget flt = RgOk ->
  oa_status a = 304 ->
  let e' := renew e (now + default_age (pc_pol cfg)) in
  proxy_step cfg now (Some e) rq (OAnswer a :: rest) flt =
  (Some e', RStored HsRevalidated 304 e',
   [{| u_meth := GET; u_hdr := set_validators e (strip_regular (rq_hdr rq)) |}]).
Proof. exact revalidation_304. Qed.
Print Assumptions C06_304.

(* the renewed lifetime is the configured default, exactly *)
Theorem C06_304_lifetime : forall e now dflt d,
  fresh (renew e (now + dflt)) (now + d) = true <-> d <= dflt.
Proof. exact renewed_lifetime. Qed.
Print Assumptions C06_304_lifetime.

(* while it lasts, a GET is answered from the store with that entry and the origin is not asked *)
Theorem C06_304_in_service : forall cfg now e' rq answers flt,
  is_get (rq_meth rq) = true -> f_lookup_err flt = false -> fresh e' now = true ->
  proxy_step cfg now (Some e') rq answers flt = (Some e', RStored HsHit 0 e', []).
Proof. exact fresh_entry_hit. Qed.
Print Assumptions C06_304_in_service.

(* A storable 200 that the cache accepts replaces the entry; the new body is served. *)
Theorem C06_200_replaces : forall cfg now st rq a rest flt,
  is_get (rq_meth rq) = true ->
  (match st with Some e => f_lookup_err flt = false /\ fresh e now = false | None => True end) ->
  oa_status a = 200 -> storable (pc_pol cfg) GET 200 (oa_hv a) now = true -> f_store_fail flt = false ->
  let e' := new_entry (pc_pol cfg) now a in
  exists u, proxy_step cfg now st rq (OAnswer a :: rest) flt =
            (Some e', RStored (match st with Some _ => HsRevalidated | None => HsMiss end) 200 e', [u]).
Proof. exact revalidation_200. Qed.
Print Assumptions C06_200_replaces.

(* ... after which, in EVERY continuation of the history, whatever is served from the store is the
   new body or one the origin handed out in a later 200 answer: the replaced body is never served
   again (unless the origin itself issues that version again). *)
Theorem C06_old_body_never_served : forall cfg now st rq a rest flt h evs1 ev evs2,
  is_get (rq_meth rq) = true ->
  (match st with Some e => f_lookup_err flt = false /\ fresh e now = false | None => True end) ->
  oa_status a = 200 -> storable (pc_pol cfg) GET 200 (oa_hv a) now = true -> f_store_fail flt = false ->
  let s1 := fst (step {| hs_cfg := cfg; hs_now := now; hs_entry := st |} (Request rq (OAnswer a :: rest) flt)) in
  events s1 h = evs1 ++ ev :: evs2 ->
  forall hs us e, ev_resp ev = RStored hs us e ->
  In (e_version e) (oa_version a :: versions200 (issued (evs1 ++ [ev]))).
Proof. exact replaced_never_served. Qed.
Print Assumptions C06_old_body_never_served.

(* Any other answer to a revalidation (not 200 / 304; a 416 unless retry_on_range_416; a 200 that
   may not be stored): the entry is neither replaced nor renewed, the client's own request is sent
   again without validators and the origin's answer to it is relayed. *)
Theorem C06_other_relayed : forall cfg now e rq a rest flt,
  revalidates (Some e) rq flt now e ->
  other_answer cfg now a ->
  proxy_step cfg now (Some e) rq (OAnswer a :: rest) flt =
  (vanished flt (Some e),
   match rest with OAnswer a2 :: _ => RRelay a2 | _ => RBadGateway end,
   [{| u_meth := GET; u_hdr := set_validators e (strip_regular (rq_hdr rq)) |};
    {| u_meth := GET; u_hdr := strip_regular (rq_hdr rq) |}]).
Proof. exact revalidation_other. Qed.
Print Assumptions C06_other_relayed.

(* ---- the hypotheses are satisfiable ------------------------------------------------------------------ *)

Definition ex_cfg : pconfig := {| pc_pol := {| ignore_cc := false; force_default := false; default_age := 3600 * second |};
                                  pc_retry416 := false |}.
Definition ex_hv : hview := {| cc_lines := [[109;97;120;45;97;103;101;61;54;48]]; expires := ExpAbsent; resp_range := false |}.
Definition ex_a (v : Z) (tag : str) (lm : option Z) : oanswer :=
  {| oa_status := 200; oa_hv := ex_hv; oa_version := v; oa_etag := tag; oa_lm := lm |}.
Definition ex_st (s : Z) : oanswer :=
  {| oa_status := s; oa_hv := {| cc_lines := []; expires := ExpAbsent; resp_range := false |}; oa_version := 9; oa_etag := []; oa_lm := None |}.
(* the client sends an RFC 850 date and a tag of its own *)
Definition ex_rq : request :=
  {| rq_meth := GET; rq_hdr := [(IF_NONE_MATCH, [CRaw [34;120;34]]); (IF_MODIFIED_SINCE, [CRaw [83;117;110;100;97;121]]); (IF_RANGE, [CRaw [34;114;34]])] |}.

(* miss (stored), stale -> 304, stale -> 404 (relayed), stale -> 200 (replaced), hit *)
Definition ex_history : list hstep :=
  [ Request ex_rq [OAnswer (ex_a 1 [34;97;34] (Some 5))] no_faults;
    Advance (100 * second);
    Request ex_rq [OAnswer (ex_st 304)] no_faults;
    Advance (4000 * second);
    Request ex_rq [OAnswer (ex_st 404); OAnswer (ex_st 404)] no_faults;
    Request ex_rq [OAnswer (ex_a 2 [] None)] no_faults;
    Advance (10 * second);
    Request ex_rq [] no_faults ].

Example C06_example :
  map (fun ev => (status_of (ev_resp ev), version_of (ev_resp ev), label_of (ev_resp ev), map u_hdr (ev_ups ev)))
      (events (init_state ex_cfg 0) ex_history)
  = [ (200, 1, Some HsMiss, [[(IF_RANGE, [CRaw [34;114;34]])]]);
      (200, 1, Some HsRevalidated, [[(IF_NONE_MATCH, [CRaw [34;97;34]]); (IF_MODIFIED_SINCE, [CDate 5]); (IF_RANGE, [CRaw [34;114;34]])]]);
      (404, 9, None, [[(IF_NONE_MATCH, [CRaw [34;97;34]]); (IF_MODIFIED_SINCE, [CDate 5]); (IF_RANGE, [CRaw [34;114;34]])];
                      [(IF_RANGE, [CRaw [34;114;34]])]]);
      (200, 2, Some HsRevalidated, [[(IF_NONE_MATCH, [CRaw [34;97;34]]); (IF_MODIFIED_SINCE, [CDate 5]); (IF_RANGE, [CRaw [34;114;34]])]]);
      (200, 2, Some HsHit, []) ].
Proof. vm_compute. reflexivity. Qed.
