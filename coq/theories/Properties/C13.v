(* C13 — Size limit enforced by LRU eviction; cleanup removes exactly the expired.
   This file contains only statements; the proof of every theorem is [exact <lemma>] or one line from lemmas
   of Proofs/Evict.v.

   Vocabulary (Model/Evict.v): an [entry] carries its key, lock shard, size, age
   since last access and expiry offset; [priority] = age + 100 * (size / MiB);
   [evict_loop target held cands cur] is the loop of cacheJanitor.evict over the
   sorted candidates [cands] with byte counter [cur], where [held] are the lock
   shards whose TryLock fails; [evict_target limit] is int64(float64(limit)*0.8)
   computed in IEEE binary64. *)
From Coq Require Import Sorting.Sorted Sorting.Permutation.
From Reservoir Require Import Base.Prelude Model.Evict Proofs.Evict.

(* The eviction, for every population, limit/target, byte counter, set of held shards and
   EVERY order the map iteration and the unstable sort can produce (any priority-descending
   permutation of the population): the removed entries
   - are distinct entries that are not in use,
   - are least-recently-used first, larger entries weighted up: no surviving evictable entry
     has a higher priority than a removed one,
   - bring the counter down to the target, unless every evictable entry was removed,
   - and no more: putting back a removed entry of least priority leaves the counter above
     the target (the loop stopped as soon as the target was reached). *)
Theorem C13_evict_spec : forall pop cands cur target held,
  NoDup (map e_key pop) -> Permutation cands pop -> Sorted pdesc cands ->
  let R := fst (evict_loop target held cands cur) in
  evict_outcome pop cur target held (map e_key R) /\
  snd (evict_loop target held cands cur) = cur - sum_sizes R /\
  Permutation (Rof held pop (map e_key R)) R.
Proof. exact evict_loop_outcome. Qed.
Print Assumptions C13_evict_spec.

(* [evict_allowed] (the relation the correspondence check uses) is exactly that specification ... *)
Theorem C13_allowed_is_spec : forall pop cur target held removed,
  evict_allowed pop cur target held removed = true <-> evict_outcome pop cur target held removed.
Proof. exact evict_allowed_iff. Qed.
Print Assumptions C13_allowed_is_spec.

(* ... and contains every resolution of the deterministic model. *)
Theorem C13_model_allowed : forall pop cands cur target held,
  NoDup (map e_key pop) -> Permutation cands pop -> Sorted pdesc cands ->
  evict_allowed pop cur target held (map e_key (fst (evict_loop target held cands cur))) = true.
Proof. exact evict_model_allowed. Qed.
Print Assumptions C13_model_allowed.

(* At or below the target nothing is removed (every allowed outcome; sizes are byte counts). *)
Theorem C13_nothing_below_target : forall pop cur target held removed,
  Forall (fun e => 0 <= e_size e) pop -> cur <= target ->
  evict_outcome pop cur target held removed -> removed = [].
Proof. exact evict_outcome_below. Qed.
Print Assumptions C13_nothing_below_target.

(* Above the target something is removed whenever something evictable exists. *)
Theorem C13_progress_above_target : forall pop cur target held removed,
  target < cur -> (exists u, In u pop /\ is_held held u = false) ->
  evict_outcome pop cur target held removed -> removed <> [].
Proof. exact evict_outcome_progress. Qed.
Print Assumptions C13_progress_above_target.

(* The time that passes between the harness's base instant and the janitor's time.Now()
   adds one constant to every age: it changes neither which candidate orders are sorted nor
   what the loop removes. *)
Theorem C13_elapsed_time_irrelevant : forall d target held cands cur,
  (Sorted pdesc (map (age_shift d) cands) <-> Sorted pdesc cands) /\
  evict_loop target held (map (age_shift d) cands) cur =
  (map (age_shift d) (fst (evict_loop target held cands cur)), snd (evict_loop target held cands cur)).
Proof. intros. split; [exact (sorted_shift d cands) | exact (evict_loop_shift d target held cands cur)]. Qed.
Print Assumptions C13_elapsed_time_irrelevant.

(* The target is 80 % of the limit: the binary64 computation int64(float64(max) * 0.8)
   equals floor(4*max/5) for every limit below 2^50 bytes (1 PiB). *)
Theorem target_is_four_fifths : forall maxb, 0 <= maxb < 2 ^ 50 -> evict_target maxb = 4 * maxb / 5.
Proof. exact evict_target_four_fifths. Qed.
Print Assumptions target_is_four_fifths.

(* Store-triggered eviction (both backends), for every state, every resolution [ord] of the
   sort and every set of held shards: below the limit (memory: min(max, memoryCap)) no entry
   is evicted; at or over it exactly one eviction to 80 % of that limit happens, in which the
   storing caller's own shard counts as in use on the memory backend. *)
Theorem C13_trigger : forall ord b held e s s' ok,
  valid_ord ord -> NoDup (map e_key (c_ents s)) ->
  store (det_evictor ord) b held e s = Some (s', ok) ->
  let limit := store_limit b s in
  (c_bytes s < limit ->
     forall x, In x (c_ents s) -> e_key x <> e_key e -> In x (c_ents s')) /\
  (limit <= c_bytes s ->
     exists removed,
       evict_outcome (c_ents s) (c_bytes s) (evict_target limit) (store_held b e held) removed /\
       forall x, In x (c_ents s) -> e_key x <> e_key e ->
                 (In x (c_ents s') <-> ~ In (e_key x) removed)).
Proof. exact store_trigger. Qed.
Print Assumptions C13_trigger.

(* The same for the size check of every janitor cycle (it reads the configured limit). *)
Theorem C13_trigger_cycle : forall ord held s s',
  valid_ord ord -> NoDup (map e_key (c_ents s)) ->
  ensure_size (det_evictor ord) held s = Some s' ->
  (c_bytes s < c_cfgmax s -> s' = s) /\
  (c_cfgmax s <= c_bytes s ->
     exists removed,
       evict_outcome (c_ents s) (c_bytes s) (evict_target (c_cfgmax s)) held removed /\
       forall x, In x (c_ents s) -> (In x (c_ents s') <-> ~ In (e_key x) removed)).
Proof. exact ensure_trigger. Qed.
Print Assumptions C13_trigger_cycle.

(* Cleanup, for every population, every set of held shards and EVERY placement of concurrent
   stores / refreshes / deletes between the scan and each removal ([batches]):
   an entry nobody touches meanwhile is removed iff its lifetime has elapsed and it is not in use; *)
Theorem C13_cleanup_exact : forall held batches l x,
  NoDup (map e_key l) -> In x l -> ~ In (e_key x) (touched (concat batches)) ->
  (In x (clean_expired held batches l) <-> ~ (expired x = true /\ is_held held x = false)).
Proof. exact clean_expired_exact. Qed.
Print Assumptions C13_cleanup_exact.

(* and whatever lands in the window, every entry the janitor removes is, at the moment of its
   removal, the entry stored under that key and expired: never a fresh overwrite or refresh. *)
Theorem C13_cleanup_never_fresh : forall held scanned batches l,
  Forall (fun e => expired e = true) (snd (clean_loop held scanned batches l)).
Proof. exact clean_loop_removes_only_expired. Qed.
Print Assumptions C13_cleanup_never_fresh.

Theorem C13_cleanup_step_keeps_fresh : forall held l ks x,
  NoDup (map e_key l) -> In x l -> expired x = false -> In x (fst (clean_one held l ks)).
Proof. exact clean_one_keeps_fresh. Qed.
Print Assumptions C13_cleanup_step_keeps_fresh.

(* Limit changes at run time, for every history of stores, accesses, deletes, evictions,
   cycles, limit updates and listener deliveries in which an update is issued only after the
   previous one reached the listener: the janitor always reads the value of the last update,
   and once nothing is pending the store path uses it too. *)
Theorem C13_limit_follows : forall ev b ops s s',
  lim_inv s -> calm ev b s ops -> run ev b s ops = Some s' ->
  lim_inv s' /\ c_cfgmax s' = last_limit (c_cfgmax s) ops.
Proof. exact limit_follows. Qed.
Print Assumptions C13_limit_follows.

(* Interval changes: once the janitor has received interval d at instant t, the n-th following
   cycle runs at t + n*d whatever the previous interval and tick phase were. *)
Theorem C13_interval_follows : forall s t d n,
  0 < d ->
  exists s1, jstep s (JInterval t d) = Ok s1 /\
             jticks n s1 = Ok (mkJ d (t + d + Z.of_nat n * d)).
Proof. exact interval_follows. Qed.
Print Assumptions C13_interval_follows.

(* A population of four entries on which the hypotheses above are met and the outcomes computed. *)
Definition ex_pop : list entry :=
  [ mkE 1 1 300 100 3600000; mkE 2 2 300 50 3600000; mkE 3 3 400 10 (-5000); mkE 4 1 2097152 0 60000 ].

(* a sorted permutation exists for every population, so the hypotheses of C13_evict_spec are satisfiable *)
Example ex_sorted : Permutation (sort_desc ex_pop) ex_pop /\ Sorted pdesc (sort_desc ex_pop).
Proof. exact (sort_desc_valid ex_pop). Qed.

(* limit 1000: target 800; the 2 MiB entry outranks the older small ones *)
Example ex_evict :
  map e_key (fst (evict_loop (evict_target 2097900) [] (sort_desc ex_pop) 2098152)) = [4]
  /\ evict_target 2097900 = 1678320.
Proof. vm_compute. split; reflexivity. Qed.

(* with shard 1 held, entries 1 and 4 are skipped and the loop moves on *)
Example ex_evict_held :
  map e_key (fst (evict_loop 500 [1] (sort_desc ex_pop) 2098152)) = [2; 3].
Proof. vm_compute. reflexivity. Qed.

(* the scan/removal window: a fresh overwrite of expired key 3 survives, the unheld expired
   entry 5 goes, the expired entry 6 whose shard is held stays *)
Example ex_window :
  map e_key (clean_expired [9] [[YStore (mkE 3 3 7 0 3600000)]]
               (ex_pop ++ [mkE 5 5 10 0 (-1); mkE 6 9 10 0 (-1)])) = [3; 1; 2; 4; 6].
Proof. vm_compute. reflexivity. Qed.

(* the hypothesis of C13_limit_follows cannot be dropped: two updates in flight, delivered in
   the opposite order, leave the store path on the older limit (utils/event fires one goroutine
   per delivery; ordering is C19's subject) *)
Example ex_overtaken :
  option_map (fun s => (c_cfgmax s, c_stmax s, c_pending s))
    (run (det_evictor sort_desc) Mem (init_state 100 100)
         [OSetLimit 5; OSetLimit 9; ODeliver 1; ODeliver 0]) = Some (9, 5, []).
Proof. vm_compute. reflexivity. Qed.

Example ex_calm :
  calm (det_evictor sort_desc) File (init_state 1000 1000)
       [OStore (mkE 1 1 600 5 3600000) []; OSetLimit 500; ODeliver 0; OStore (mkE 2 2 10 0 3600000) []]
  /\ option_map (fun s => (map e_key (c_ents s), c_bytes s, c_stmax s))
       (run (det_evictor sort_desc) File (init_state 1000 1000)
         [OStore (mkE 1 1 600 5 3600000) []; OSetLimit 500; ODeliver 0; OStore (mkE 2 2 10 0 3600000) []])
     = Some ([2], 10, 500).
Proof. vm_compute. split; [tauto | reflexivity]. Qed.
