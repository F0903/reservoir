(* C08 — Relayed traffic is faithful in both directions.
   This file contains only statements; the proof of every theorem is [exact <lemma>] or a line or two from a
   more general lemma of Proofs/Relay.v.
   Vocabulary (Model/Relay.v, Proofs/Relay.v):
     hvalues n h            all values of field n (any case) in header map h, in order
     wf_hdrs h              h is a header map as net/http builds it: unique, canonical keys
     end_to_end n h         n is none of the nine hop-by-hop fields and no element of a Connection value of h names it
     response_headers x     header map the responder holds when handleHTTP writes the response of exchange x
     relay_request r        the request as it leaves the proxy for the client request r *)
From Reservoir Require Import Base.Prelude Model.Relay Proofs.Relay.

(* --- responses ---------------------------------------------------------- *)
(* Relayed (not stored) response: every end-to-end field the origin sent arrives with all of
   its values in order, for every origin header map; the only fields the proxy writes itself
   on a 2xx are Accept-Ranges, Cache-Status, X-Cache, Via ... *)
Theorem C08_response_headers_relayed : forall meth proto status origin cs body n,
  wf_hdrs origin -> end_to_end n origin -> not_in n owned_direct ->
  hvalues n (response_headers {| x_meth := meth; x_proto := proto; x_kind := KDirect status origin cs; x_body := body |})
  = hvalues n origin.
Proof.
  intros meth proto status origin cs body n W E N. rewrite <- (rhbh_keeps n origin E).
  eapply (response_headers_origin origin owned_direct n W N); [reflexivity|]. destruct ((200 <=? status) && (status <? 300)); reflexivity.
Qed.
Print Assumptions C08_response_headers_relayed.

(* ... and on any other status it writes none: the whole end-to-end header passes. *)
Theorem C08_response_headers_relayed_non2xx : forall meth proto status origin cs body n,
  wf_hdrs origin -> end_to_end n origin -> (200 <=? status) && (status <? 300) = false ->
  hvalues n (response_headers {| x_meth := meth; x_proto := proto; x_kind := KDirect status origin cs; x_body := body |})
  = hvalues n origin.
Proof.
  intros meth proto status origin cs body n W E S. rewrite <- (rhbh_keeps n origin E).
  eapply (response_headers_origin origin [] n W eq_refl); [reflexivity|]. rewrite S. reflexivity.
Qed.
Print Assumptions C08_response_headers_relayed_non2xx.

(* Via, X-Cache and Cache-Status are appended after the origin's own values, never replace them. *)
Theorem C08_response_headers_appended : forall meth proto status origin cs body,
  wf_hdrs origin -> (200 <=? status) && (status <? 300) = true ->
  let x := {| x_meth := meth; x_proto := proto; x_kind := KDirect status origin cs; x_body := body |} in
  (end_to_end s_Via origin -> hvalues s_Via (response_headers x) = hvalues s_Via origin ++ [proto ++ s_sp_reservoir]) /\
  (end_to_end s_X_Cache origin -> hvalues s_X_Cache (response_headers x) = hvalues s_X_Cache origin ++ [s_MISS]) /\
  (end_to_end s_Cache_Status origin -> hvalues s_Cache_Status (response_headers x) = hvalues s_Cache_Status origin ++ [cs]).
Proof. exact direct_appends. Qed.
Print Assumptions C08_response_headers_appended.

(* Response served from the store (miss just stored, hit, revalidated). *)
Theorem C08_response_headers_stored : forall meth proto hs origin etag lm cs age body n,
  wf_hdrs origin -> end_to_end n origin -> not_in n owned_stored ->
  hvalues n (response_headers {| x_meth := meth; x_proto := proto; x_kind := KStored hs origin etag lm cs age; x_body := body |})
  = hvalues n origin.
Proof.
  intros meth proto hs origin etag lm cs age body n W E N. rewrite <- (rhbh_keeps n origin E).
  eapply (response_headers_origin origin owned_stored n W N); [reflexivity|]. destruct hs; reflexivity.
Qed.
Print Assumptions C08_response_headers_stored.

(* 206 from the store: Content-Length / Content-Range are the slice's. *)
Theorem C08_response_headers_partial : forall meth proto origin etag lm cr clen section body n,
  wf_hdrs origin -> end_to_end n origin -> not_in n owned_partial ->
  hvalues n (response_headers {| x_meth := meth; x_proto := proto; x_kind := KPartial origin etag lm cr clen section; x_body := body |})
  = hvalues n origin.
Proof.
  intros meth proto origin etag lm cr clen section body n W E N. rewrite <- (rhbh_keeps n origin E).
  eapply (response_headers_origin origin owned_partial n W N); reflexivity.
Qed.
Print Assumptions C08_response_headers_partial.

(* Status is the origin's (a stored entry is always a 200) and the body handed to the responder
   is the origin's / the stored one, after header calls only; HEAD gets none. *)
Theorem C08_body_passthrough : forall x,
  match x_kind x with KDirect _ _ _ => True | KStored _ _ _ _ _ _ => True | _ => False end ->
  exists pre, exchange_ops x = pre ++ [RWrite (response_status x) (if x_head x then [] else x_body x)] /\
              Forall (fun o => match o with RWrite _ _ => False | RWriteError _ _ => False | _ => True end) pre.
Proof.
  intros x K. pose proof (exchange_ops_shape x) as S. unfold final_op in S.
  destruct (x_kind x); try contradiction; exact S.
Qed.
Print Assumptions C08_body_passthrough.

(* --- hop-by-hop --------------------------------------------------------- *)
(* what "end to end" means, spelled out *)
Theorem C08_end_to_end_characterised : forall n h,
  end_to_end n h <->
  (forall n', In n' hop_headers -> canon_key n' <> canon_key n) /\
  (forall v e, In v (hvalues s_Connection h) -> In e (split_comma v) -> ~ element_names e n).
Proof. exact end_to_end_spec. Qed.
Print Assumptions C08_end_to_end_characterised.

(* Each of Connection, Proxy-Connection, Keep-Alive, Proxy-Authenticate, Proxy-Authorization, TE,
   Trailer, Transfer-Encoding, Upgrade, in any case, is removed from every header map. *)
Theorem C08_hop_by_hop_names : forall h n n',
  In n' hop_headers -> lower_str n' = lower_str n -> hvalues n (remove_hop_by_hop h) = [].
Proof. exact hop_name_removed. Qed.
Print Assumptions C08_hop_by_hop_names.

(* RFC 9110 7.6.1: a field named by a Connection option -- a token, in any case, with optional
   blanks around it, in any value of any Connection line -- is removed. *)
Theorem C08_hop_by_hop_nominated : forall h n v l t r,
  In v (hvalues s_Connection h) -> In (l ++ t ++ r) (split_comma v) ->
  Forall is_ows l -> Forall is_ows r -> t <> [] -> forallb valid_field_byte t = true ->
  lower_str t = lower_str n ->
  hvalues n (remove_hop_by_hop h) = [].
Proof. exact nominated_removed. Qed.
Print Assumptions C08_hop_by_hop_nominated.

(* Neither direction forwards such a field: towards the client (unless the proxy writes that field itself) ... *)
Theorem C08_hop_by_hop_response : forall x origin n,
  (match x_kind x with
   | KDirect _ o _ => o = origin | KStored _ o _ _ _ _ => o = origin | KPartial o _ _ _ _ _ => o = origin
   | _ => False end) ->
  wf_hdrs origin -> removed_by_hop (canon_key n) origin = true ->
  not_in n owned_stored -> not_in n owned_partial ->
  hvalues n (response_headers x) = [].
Proof. exact response_drops_hop. Qed.
Print Assumptions C08_hop_by_hop_response.

(* ... and towards the origin. *)
Theorem C08_hop_by_hop_request : forall r u n,
  relay_request r = Some u -> removed_by_hop (canon_key n) (c_hdrs r) = true -> hvalues n (q_hdrs u) = [].
Proof. exact request_drops_hop. Qed.
Print Assumptions C08_hop_by_hop_request.

(* --- requests ----------------------------------------------------------- *)
(* Method, body and query are unchanged and the path is byte for byte the client's,
   for every RFC 3986 path (pct-encoded octets such as %2F included) and every query. *)
Theorem C08_request : forall r,
  rfc_path (c_rawpath r) ->
  exists u, relay_request r = Some u /\
            q_method u = c_method r /\ q_body u = c_body r /\
            q_target u = with_query (c_rawpath r) (c_query r).
Proof. exact request_faithful. Qed.
Print Assumptions C08_request.

Theorem C08_request_path : forall p,
  rfc_path p -> exists path raw, set_path p = Some (path, raw) /\ escaped_path path raw = p.
Proof. exact path_preserved. Qed.
Print Assumptions C08_request_path.

(* Every end-to-end request field reaches the origin with all its values in order; only on the methods the cache may
   answer itself (GET, HEAD) are the client's conditionals consumed by the cache layer. *)
Theorem C08_request_headers : forall r u n,
  relay_request r = Some u -> end_to_end n (c_hdrs r) -> (cache_answers (c_method r) = true -> ~ is_conditional n) ->
  hvalues n (q_hdrs u) = hvalues n (c_hdrs r).
Proof. exact request_headers_faithful. Qed.
Print Assumptions C08_request_headers.

(* In particular a write (PUT, DELETE, PATCH, POST, ...) reaches the origin with its preconditions (If-Match, ...). *)
Theorem C08_write_preconditions : forall r u n,
  relay_request r = Some u -> cache_answers (c_method r) = false -> end_to_end n (c_hdrs r) ->
  hvalues n (q_hdrs u) = hvalues n (c_hdrs r).
Proof. intros r u n H W E. apply (request_headers_faithful r u n H E). congruence. Qed.
Print Assumptions C08_write_preconditions.

(* --- non-vacuity -------------------------------------------------------- *)
Definition b_set_cookie : str := [83;101;116;45;67;111;111;107;105;101].
Definition b_x_foo : str := [88;45;70;111;111].
Definition ex_origin : hdrs :=
  [ (b_set_cookie, [[97;61;49]; [98;61;50]])                  (* Set-Cookie: a=1 / b=2 *)
  ; (s_Connection, [[32;120;45;102;79;111;32;44;99;108;111;115;101]])   (* Connection: " x-fOo ,close" *)
  ; (b_x_foo, [[115;101;99;114;101;116]])                     (* X-Foo: secret *)
  ; (s_Keep_Alive, [[116;105;109;101;111;117;116;61;53]]) ].
Definition ex_x : exchange :=
  {| x_meth := MPlain; x_proto := [72;84;84;80;47;49;46;49]; x_kind := KDirect 200 ex_origin [109]; x_body := [104;105] |}.

Example ex_wf : NoDup (hkeys ex_origin) /\ forallb (fun k => str_eqb (canon_key k) k) (hkeys ex_origin) = true.
Proof. split; [repeat constructor; cbn; intuition discriminate | vm_compute; reflexivity]. Qed.
Example ex_multi_value_kept : hvalues b_set_cookie (response_headers ex_x) = [[97;61;49]; [98;61;50]].
Proof. vm_compute. reflexivity. Qed.
Example ex_end_to_end : removed_by_hop (canon_key b_set_cookie) ex_origin = false.
Proof. vm_compute. reflexivity. Qed.
Example ex_nominated_dropped :
  hvalues b_x_foo (response_headers ex_x) = [] /\ hvalues s_Keep_Alive (response_headers ex_x) = [] /\
  hvalues s_Connection (response_headers ex_x) = [].
Proof. vm_compute. repeat split. Qed.
Example ex_via_appended : hvalues s_Via (response_headers ex_x) = [[72;84;84;80;47;49;46;49;32;114;101;115;101;114;118;111;105;114]].
Proof. vm_compute. reflexivity. Qed.
(* /a%2Fb?x=%2F keeps its escaping; before the fix the model gave /a/b *)
Example ex_pct_path : forwarded_target [47;97;37;50;70;98] [120;61;37;50;70] = Some [47;97;37;50;70;98;63;120;61;37;50;70].
Proof. vm_compute. reflexivity. Qed.
Example ex_rfc_path : rfc_path_chars [47;97;37;50;70;98] = true.
Proof. vm_compute. reflexivity. Qed.
