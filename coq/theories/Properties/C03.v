(* C03 — A stored response is reused only while fresh; expiry forces an origin contact.
   This file contains only statements; the proof of every theorem is [exact <lemma>].

   [store_expiry pol hv now] is the model of GetExpiresOrDefault on the parsed headers (the
   instant given to the cache when a response is stored at [now]); [lifetime_upper] /
   [lifetime_lower] are the reference reading of "the lifetime given by the origin's
   Cache-Control max-age, else by its Expires date (an unparseable Expires counts as already
   expired), else by the configured default; always the configured default when the
   operator forces it" (Model/FreshnessSpec.v; they coincide unless a header carries
   several different max-age directives or a max-age beyond ~292 years). *)
From Reservoir Require Import Base.Prelude Base.Strings Model.Freshness Model.FreshnessSpec
  Model.FreshHistory Proofs.Freshness Proofs.FreshHistory.

(* ---- the lifetime given to a stored response ---------------------------------------- *)

Theorem C03_lifetime_forced : forall pol hv now,
  force_default pol = true -> store_expiry pol hv now = now + default_age pol.
Proof. exact lifetime_forced. Qed.
Print Assumptions C03_lifetime_forced.

(* never longer than prescribed: max-age, else Expires (unparseable: not after now), else default *)
Theorem C03_lifetime_upper : forall pol hv now,
  zero_time < now -> force_default pol = true \/ ascii_header hv = true ->
  store_expiry pol hv now - now <= lifetime_upper pol hv now.
Proof. exact lifetime_upper_bound. Qed.
Print Assumptions C03_lifetime_upper.

(* ... and never shorter *)
Theorem C03_lifetime_lower : forall pol hv now,
  force_default pol = true \/ ascii_header hv = true ->
  0 < lifetime_lower pol hv now ->
  lifetime_lower pol hv now <= store_expiry pol hv now - now.
Proof. exact lifetime_lower_bound. Qed.
Print Assumptions C03_lifetime_lower.

(* the ordinary case: one max-age directive (any case, blanks, on any line) *)
Theorem C03_lifetime_single_max_age : forall pol hv now v,
  force_default pol = false -> ascii_header hv = true ->
  positive_max_ages (ref_tokens hv) = [v] -> v <= representable_secs ->
  store_expiry pol hv now = now + v * second.
Proof. exact lifetime_single_max_age. Qed.
Print Assumptions C03_lifetime_single_max_age.

(* ---- histories ---------------------------------------------------------------------- *)

(* In every request history, a response that did not reach the origin (a) is the stored body
   of an earlier fetched 200 GET answer that was storable, (b) is served no later than the
   expiry [exp] of that entry, where [exp] is either the lifetime computed when it was
   stored or "revalidation instant + default lifetime" of a later request in which the
   origin was contacted and answered 304, (c) is labelled HIT, with ttl = whole seconds left
   until [exp] and Age = initial age + whole seconds since the store instant. *)
Theorem C03_no_reuse_after_expiry : forall pol0 now0 h evs1 ev evs2,
  events (init_state pol0 now0) h = evs1 ++ ev :: evs2 ->
  r_contacted (ev_resp ev) = false ->
  exists ev0 exp,
    In ev0 evs1 /\ ev_meth ev0 = GET /\ oa_status (ev_oa ev0) = 200 /\
    r_contacted (ev_resp ev0) = true /\ ev_effect ev0 = EStored /\
    storable (ev_pol ev0) GET 200 (oa_hv (ev_oa ev0)) (ev_now ev0) = true /\
    ev_meth ev = GET /\
    ev_resp ev = {| r_status := 200; r_version := oa_version (ev_oa ev0); r_label := Some HsHit;
                    r_cs := Some (make_cache_status HsHit 0 true exp (ev_now ev));
                    r_age := Some (current_age (Some (ev_now ev0)) (oa_age (ev_oa ev0)) (ev_now ev0) (ev_now ev));
                    r_contacted := false |} /\
    ev_now ev <= exp /\
    (exp = store_expiry (ev_pol ev0) (oa_hv (ev_oa ev0)) (ev_now ev0)
     \/ exists ev1, In ev1 evs1 /\ ev_meth ev1 = GET /\ ev_effect ev1 = ERenewed /\
                    r_contacted (ev_resp ev1) = true /\
                    r_version (ev_resp ev1) = oa_version (ev_oa ev0) /\
                    exp = ev_now ev1 + default_age (ev_pol ev1)).
Proof. exact hist_reuse. Qed.
Print Assumptions C03_no_reuse_after_expiry.

(* The same bound in the property's own terms. *)
Theorem C03_reuse_within_lifetime : forall pol0 now0 h evs1 ev evs2,
  events (init_state pol0 now0) h = evs1 ++ ev :: evs2 ->
  r_contacted (ev_resp ev) = false ->
  exists ev0,
    In ev0 evs1 /\ ev_meth ev0 = GET /\ oa_status (ev_oa ev0) = 200 /\ r_contacted (ev_resp ev0) = true /\
    ev_meth ev = GET /\ r_status (ev_resp ev) = 200 /\ r_version (ev_resp ev) = oa_version (ev_oa ev0) /\
    (zero_time < ev_now ev0 -> may_store (ev_pol ev0) GET 200 (oa_hv (ev_oa ev0)) (ev_now ev0) = true) /\
    ((zero_time < ev_now ev0 ->
      force_default (ev_pol ev0) = true \/ ascii_header (oa_hv (ev_oa ev0)) = true ->
      ev_now ev - ev_now ev0 <= lifetime_upper (ev_pol ev0) (oa_hv (ev_oa ev0)) (ev_now ev0))
     \/ exists ev1, In ev1 evs1 /\ ev_meth ev1 = GET /\ r_contacted (ev_resp ev1) = true /\
                    r_version (ev_resp ev1) = r_version (ev_resp ev) /\
                    ev_now ev - ev_now ev1 <= default_age (ev_pol ev1)).
Proof. exact hist_reuse_spec. Qed.
Print Assumptions C03_reuse_within_lifetime.

(* Once the lifetime has elapsed the origin is contacted before the entry is used again:
   a request is answered without contact only if an entry exists whose expiry has not passed. *)
Theorem C03_expiry_forces_contact : forall s m oa r304 s' ev,
  step s (Request m oa r304) = (s', Some ev) ->
  r_contacted (ev_resp ev) = false ->
  exists e, hs_entry s = Some e /\ hs_now s <= e_expires e /\ m = GET /\ s' = s.
Proof. exact expiry_forces_contact. Qed.
Print Assumptions C03_expiry_forces_contact.

(* HIT (X-Cache / Cache-Status) exactly when the response was served without contacting the origin. *)
Theorem C03_label : forall pol0 now0 h evs1 ev evs2,
  events (init_state pol0 now0) h = evs1 ++ ev :: evs2 ->
  (r_label (ev_resp ev) = Some HsHit <-> r_contacted (ev_resp ev) = false).
Proof. exact hist_label. Qed.
Print Assumptions C03_label.

(* what the ttl and Age of those labels are *)
Theorem C03_ttl : forall hs us cached exp now t,
  cs_ttl (make_cache_status hs us cached exp now) = Some t ->
  t = Z.max 0 (trunc_secs (exp - now)) /\ 0 <= t /\ hs <> HsMiss.
Proof. exact ttl_value. Qed.
Print Assumptions C03_ttl.

Theorem C03_age : forall up_age stored_at now,
  stored_at <= now ->
  let init := match up_age with Some a => Z.max 0 a | None => 0 end in
  init + trunc_secs (now - stored_at) <= max_int64 ->
  current_age (Some stored_at) up_age stored_at now = init + trunc_secs (now - stored_at).
Proof. exact age_value. Qed.
Print Assumptions C03_age.

(* ---- non-vacuity ------------------------------------------------------------------- *)
Definition honour : policy := {| ignore_cc := false; force_default := false; default_age := 3600 * second |}.
Definition forced : policy := {| ignore_cc := true; force_default := true; default_age := 90 * second |}.
Definition t0 : Z := 1790000000 * second.
(* "Max-Age=60" *)
Definition s_Max_Age_60 : str := [77;97;120;45;65;103;101;61;54;48].
Definition hv60 : hview := {| cc_lines := [s_Max_Age_60]; expires := ExpAbsent; resp_range := false |}.
Definition hv_exp0 : hview := {| cc_lines := []; expires := ExpUnparseable; resp_range := false |}.
Definition hv_exp (t : Z) : hview := {| cc_lines := []; expires := ExpAt t; resp_range := false |}.

Example ex_max_age : store_expiry honour hv60 t0 = t0 + 60 * second
                     /\ lifetime_upper honour hv60 t0 = 60 * second /\ lifetime_lower honour hv60 t0 = 60 * second.
Proof. vm_compute. repeat split; reflexivity. Qed.
Example ex_forced : store_expiry forced hv60 t0 = t0 + 90 * second.
Proof. vm_compute. reflexivity. Qed.
Example ex_expires : store_expiry honour (hv_exp (t0 + 10 * second)) t0 = t0 + 10 * second.
Proof. vm_compute. reflexivity. Qed.
Example ex_default : store_expiry honour {| cc_lines := []; expires := ExpAbsent; resp_range := false |} t0 = t0 + 3600 * second.
Proof. vm_compute. reflexivity. Qed.
(* Expires: 0 with directives ignored: stored, but already expired *)
Example ex_unparseable : store_expiry forced hv_exp0 t0 = t0 + 90 * second
  /\ (store_expiry {| ignore_cc := true; force_default := false; default_age := 90 * second |} hv_exp0 t0 <? t0) = true.
Proof. vm_compute. split; reflexivity. Qed.

(* GET (stored, max-age 60), +30 s GET (HIT, Age 30, ttl 30), +40 s GET with a 304 (REVALIDATED, default
   lifetime 1 h from now), +3000 s GET (HIT, ttl 600), +700 s GET (stale again) *)
Definition oa60 : oanswer := {| oa_status := 200; oa_hv := hv60; oa_version := 7; oa_age := None |}.
Definition h_demo : list hstep :=
  [Request GET oa60 true; Advance (30 * second); Request GET oa60 true; Advance (40 * second); Request GET oa60 true;
   Advance (3000 * second); Request GET oa60 true; Advance (700 * second); Request GET oa60 false].
Example ex_history :
  map (fun ev => (r_contacted (ev_resp ev), r_label (ev_resp ev), r_age (ev_resp ev),
                  match r_cs (ev_resp ev) with Some c => cs_ttl c | None => None end))
      (events (init_state honour t0) h_demo)
  = [(true, Some HsMiss, None, None); (false, Some HsHit, Some 30, Some 30);
     (true, Some HsRevalidated, Some 70, Some 3600); (false, Some HsHit, Some 3070, Some 600);
     (true, Some HsRevalidated, Some 0, Some 60)].
Proof. vm_compute. reflexivity. Qed.
