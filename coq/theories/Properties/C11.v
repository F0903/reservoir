(* C11 — Every tunnel gets a valid host-specific certificate from the configured CA.
   Statements only; the proof of every theorem is [exact <lemma>] or a line or two from a more general lemma of
   Proofs/Certs.v.
   [parse_ip] is the library function net.ParseIP (any function: the theorems hold for every one).
   Signature, chain and key match are crypto/x509's and are observed by the harness, not proved:
   the claim is partial in that respect. *)
From Reservoir Require Import Base.Prelude Model.Certs Proofs.Certs.

(* The two shapes of a CONNECT target are accepted, with exactly the host text between the
   brackets / before the port ... *)
Theorem C11_split_name_port : forall name port : str,
  plain name -> plain port -> split_host_port (name ++ COLON :: port) = Some (name, port).
Proof. exact split_name_port. Qed.
Print Assumptions C11_split_name_port.

Theorem C11_split_bracket : forall inner port : str,
  ~ In LBRACK inner -> ~ In RBRACK inner -> plain port ->
  split_host_port (LBRACK :: inner ++ RBRACK :: COLON :: port) = Some (inner, port).
Proof. exact split_bracket. Qed.
Print Assumptions C11_split_bracket.

(* ... and every history (any sequence of calls and clock advances from an empty cache): a
   certificate returned for a target names exactly the host text of that target (an IP SAN when
   the text is an IP literal, else that DNS name), nothing else. *)
Theorem C11_names_exactly_host : forall parse_ip ops hp s' c,
  get_cert parse_ip hp (run parse_ip ops (init)) = (s', Ok c) ->
  exists h p, split_host_port hp = Some (h, p) /\
              (hp = h ++ COLON :: p \/ hp = LBRACK :: h ++ RBRACK :: COLON :: p) /\
              c_san c = san_of parse_ip h.
Proof. intros pi ops hp s' c H. apply (reach_ret pi _ _ _ _ H). Qed.
Print Assumptions C11_names_exactly_host.

(* Every returned certificate, cached or new, is inside its validity period at that moment and
   lives 240 h. *)
Theorem C11_valid_when_returned : forall parse_ip ops hp s' c,
  get_cert parse_ip hp (run parse_ip ops init) = (s', Ok c) ->
  valid_at (s_now (run parse_ip ops init)) c /\ c_na c = c_nb c + LIFETIME.
Proof. intros pi ops hp s' c H. apply (reach_ret pi _ _ _ _ H). Qed.
Print Assumptions C11_valid_when_returned.

(* Every target SplitHostPort accepts and x509 can encode gets a certificate, in every state. *)
Theorem C11_every_target_served : forall parse_ip ops hp h p,
  split_host_port hp = Some (h, p) -> creatable parse_ip h = true ->
  exists c, snd (get_cert parse_ip hp (run parse_ip ops init)) = Ok c.
Proof. intros pi ops hp. apply get_cert_served. Qed.
Print Assumptions C11_every_target_served.

(* Reused per host while valid: after a call returned c, whatever happens in between (any calls,
   any targets, any advances), as long as the clock has not passed c's NotAfter the same
   certificate is returned and the cache is left untouched ... *)
Theorem C11_reuse_until_expiry : forall parse_ip ops0 hp s1 c ops,
  get_cert parse_ip hp (run parse_ip ops0 init) = (s1, Ok c) ->
  s_now (run parse_ip ops s1) <= c_na c ->
  get_cert parse_ip hp (run parse_ip ops s1) = (run parse_ip ops s1, Ok c).
Proof. exact reuse_until_expiry. Qed.
Print Assumptions C11_reuse_until_expiry.

(* ... and replaced once expired: past NotAfter a different, currently valid certificate is returned. *)
Theorem C11_replaced_after_expiry : forall parse_ip ops0 hp s1 c ops s3 c',
  get_cert parse_ip hp (run parse_ip ops0 init) = (s1, Ok c) ->
  c_na c < s_now (run parse_ip ops s1) ->
  get_cert parse_ip hp (run parse_ip ops s1) = (s3, Ok c') ->
  c_id c' <> c_id c /\ valid_at (s_now (run parse_ip ops s1)) c'.
Proof. exact replaced_after_expiry. Qed.
Print Assumptions C11_replaced_after_expiry.

(* Concurrent callers, any number, any targets, EVERY interleaving of their atomic cache actions
   (Get / Delete / createCert / Set) and any passing of time in between, starting from any state a
   history can reach: each certificate handed out names its caller's host and was valid when chosen. *)
Theorem C11_concurrent_issuance : forall parse_ip ops hps sched i hp c t,
  let st := lrun parse_ip sched (linit (run parse_ip ops init) hps) in
  nth_error hps i = Some hp ->
  nth_error (l_threads st) i = Some (PDone (Ok c) t) ->
  (exists h port, split_host_port hp = Some (h, port) /\
                  (hp = h ++ COLON :: port \/ hp = LBRACK :: h ++ RBRACK :: COLON :: port) /\
                  c_san c = san_of parse_ip h) /\
  valid_at t c /\ s_now (run parse_ip ops init) <= l_now st /\ t <= l_now st /\ c_na c = c_nb c + LIFETIME.
Proof.
  intros pi ops hps sched i hp c t st Hhp Hp.
  destruct (reach_thread_ok pi ops hps sched i hp _ Hhp Hp) as [[(Hn & Hv & Hl) Ht] Hnow]. auto.
Qed.
Print Assumptions C11_concurrent_issuance.

(* No caller panics; a refusal means an unsplittable target or an unencodable name. *)
Theorem C11_concurrent_refusals : forall parse_ip ops hps sched i hp r t,
  let st := lrun parse_ip sched (linit (run parse_ip ops init) hps) in
  nth_error hps i = Some hp ->
  nth_error (l_threads st) i = Some (PDone r t) ->
  match r with
  | Ok _ => True
  | Err => split_host_port hp = None \/
           exists h port, split_host_port hp = Some (h, port) /\ creatable parse_ip h = false
  | Panic => False
  end.
Proof.
  intros pi ops hps sched i hp r t st Hhp Hp.
  destruct (reach_thread_ok pi ops hps sched i hp _ Hhp Hp) as [[Hr _] _]. destruct r; [exact I|exact Hr..].
Qed.
Print Assumptions C11_concurrent_refusals.

(* Once all callers have returned the cache holds, for every host asked for, one of the
   certificates handed to a caller for that host (or the one it held before). *)
Theorem C11_concurrent_cache_holds_one : forall parse_ip ops hps sched i hp h port,
  let s0 := run parse_ip ops init in
  let st := lrun parse_ip sched (linit s0 hps) in
  all_done st = true ->
  nth_error hps i = Some hp -> split_host_port hp = Some (h, port) -> creatable parse_ip h = true ->
  exists c, lookup h (l_cache st) = Some c /\
    (lookup h (s_cache s0) = Some c \/
     exists i' t, for_host hps i' h /\ nth_error (l_threads st) i' = Some (PDone (Ok c) t)).
Proof. exact concurrent_cache_holds_one. Qed.
Print Assumptions C11_concurrent_cache_holds_one.

(* When the host had no certificate before the callers started, the one cached in the end was
   handed to one of them. *)
Theorem C11_concurrent_first_requests : forall parse_ip ops hps sched i hp h port,
  let s0 := run parse_ip ops init in
  let st := lrun parse_ip sched (linit s0 hps) in
  all_done st = true ->
  nth_error hps i = Some hp -> split_host_port hp = Some (h, port) -> creatable parse_ip h = true ->
  lookup h (s_cache s0) = None ->
  exists c i' t, lookup h (l_cache st) = Some c /\ for_host hps i' h /\
                 nth_error (l_threads st) i' = Some (PDone (Ok c) t).
Proof.
  intros pi ops hps sched i hp h port s0 st Hdone Hhp Hs Hcr Hnone.
  destruct (concurrent_cache_holds_one pi ops hps sched i hp h port Hdone Hhp Hs Hcr)
    as (c & Hl & [Hm|(i' & t & Hf & Hp)]); [fold s0 in Hm; congruence|exists c, i', t; auto].
Qed.
Print Assumptions C11_concurrent_first_requests.

(* The LTS is the sequential function when a caller runs alone. *)
Theorem C11_solo_refines_get_cert : forall parse_ip hp s,
  let st := lrun parse_ip [(O, 0); (O, 0); (O, 0); (O, 0)] (linit s [hp]) in
  exists t, l_threads st = [PDone (snd (get_cert parse_ip hp s)) t] /\
            l_cache st = s_cache (fst (get_cert parse_ip hp s)) /\
            l_next st = s_next (fst (get_cert parse_ip hp s)).
Proof. exact solo_refines_get_cert. Qed.
Print Assumptions C11_solo_refines_get_cert.

(* Non-vacuity.  example.com:443, [::1]:443 with an oracle that knows "::1". *)
Definition pip (h : str) : option str := if str_eqb h [58;58;49] then Some [58;58;49] else None.
Definition ex_hp : str := [101;120;97;109;112;108;101;46;99;111;109;58;52;52;51].
Definition ex_v6 : str := [91;58;58;49;93;58;52;52;51].
Example ex_first : snd (get_cert pip ex_hp init) =
  Ok {| c_id := 0; c_san := SanDNS [101;120;97;109;112;108;101;46;99;111;109]; c_nb := 0; c_na := 864000 |}.
Proof. vm_compute. reflexivity. Qed.
Example ex_v6_san : snd (get_cert pip ex_v6 init) =
  Ok {| c_id := 0; c_san := SanIP [58;58;49]; c_nb := 0; c_na := 864000 |}.
Proof. vm_compute. reflexivity. Qed.
(* reuse at 863 999 s, replacement at 864 001 s *)
Example ex_reuse : option_map c_id
  (match snd (get_cert pip ex_hp (run pip [Get ex_hp; Adv 863999] init)) with Ok c => Some c | _ => None end) = Some 0.
Proof. vm_compute. reflexivity. Qed.
Example ex_replace : option_map c_id
  (match snd (get_cert pip ex_hp (run pip [Get ex_hp; Adv 864001] init)) with Ok c => Some c | _ => None end) = Some 1.
Proof. vm_compute. reflexivity. Qed.
(* three concurrent first requests, interleaved so that all three create: the cache ends with the last Set *)
Example ex_concurrent :
  let st := lrun pip [(0%nat,0);(1%nat,0);(2%nat,0);(0%nat,0);(1%nat,0);(2%nat,0);(2%nat,0);(0%nat,0);(1%nat,0)]
                 (linit init [ex_hp; ex_hp; ex_hp]) in
  all_done st = true /\
  option_map c_id (lookup [101;120;97;109;112;108;101;46;99;111;109] (l_cache st)) = Some 1 /\
  map (fun p => match p with PDone (Ok c) _ => c_id c | _ => -1 end) (l_threads st) = [0; 1; 2].
Proof. vm_compute. repeat split; reflexivity. Qed.
Example ex_no_port : snd (get_cert pip [101;120;97;109;112;108;101;46;99;111;109] init) = Err.
Proof. vm_compute. reflexivity. Qed.
