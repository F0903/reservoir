(* C12 — Reported cache size and entry count equal what is actually stored.
   Statements only; the proof of every theorem is [exact <lemma>] or one line from a more general lemma
   of Proofs/Store.v (the last two theorems: of Proofs/Counters.v).

   [run b lim acts] is the state of backend [b] (Mem | File) with size limit
   [lim] after ANY list of actions: stores split into begin / write chunk /
   abort (source failed) / commit (incl. empty bodies, which the file backend
   refuses), overwrites, Get, reads, Close, Delete (also of missing keys),
   UpdateMetadata, clock advances, cleanup cycles with arbitrary skipped keys,
   evictions removing an arbitrary key set (also the ones triggered inside a
   store), and restarts over the dirty directory (also in the middle of a
   store, leaving a partial temp file behind). *)
From Reservoir Require Import Base.Prelude Base.Amap Model.Store Proofs.Store Model.Counters Proofs.Counters.

(* The inductive invariant behind everything below holds initially and is
   preserved by every single action from every state satisfying it. *)
Theorem C12_invariant_init : forall b, Inv b init.
Proof. exact inv_init. Qed.
Print Assumptions C12_invariant_init.

Theorem C12_invariant_step : forall b lim s a, Inv b s -> Inv b (fst (step b lim s a)).
Proof. exact step_inv. Qed.
Print Assumptions C12_invariant_step.

(* In every reachable state, for both backends:
   byteSize = total number of bytes of the bodies Get actually returns,
   entry-count metric = number of keys Get returns,
   bytes metric = byteSize,
   every returned Metadata.Size is the length of the returned body,
   (file backend, no store in progress) the directory contains exactly one
   file <hex k> per retrievable key k, of exactly the body's size, nothing else,
   and no counter is negative. *)
Theorem C12_accounting : forall b lim acts,
  let s := run b lim acts in
  s_bs s = sum_data (retrievable b s) /\
  s_me s = zlen (retrievable b s) /\
  s_mb s = s_bs s /\
  (forall k d sz o, In (k, (d, sz, o)) (retrievable b s) -> sz = zlen d) /\
  (b = File -> quiescent s = true ->
     forall n sz, In (n, sz) (dir_listing s) <->
                  exists k d sz' o, n = nkey k /\ In (k, (d, sz', o)) (retrievable b s) /\ sz = zlen d) /\
  NoDup (map fst (dir_listing s)) /\
  0 <= s_bs s /\ 0 <= s_me s /\ 0 <= s_mb s.
Proof. intros b lim acts. apply accounting, run_inv. Qed.
Print Assumptions C12_accounting.

(* A restart leaves nothing behind: empty directory, zero counters, nothing retrievable. *)
Theorem C12_restart_clean : forall b lim acts,
  let s := run b lim (acts ++ [AReopen]) in
  s_bs s = 0 /\ s_me s = 0 /\ s_mb s = 0 /\ retrievable b s = [] /\ dir_listing s = [].
Proof. exact restart_clean. Qed.
Print Assumptions C12_restart_clean.

(* ---- the counters, the directory and what Get returns, computed on histories with overwrites, a failed and
   an empty store, expiry, and a store still in progress ---- *)
Definition ex_overwrite : list act :=
  [ ABegin 0 3600 1 []; AWrite 0 [65;65;65]; AWrite 0 [65;65]; ACommit 0;      (* 5 bytes *)
    ABegin 0 3600 2 []; AWrite 0 [66;66;66]; ACommit 0;                         (* overwrite with 3 bytes *)
    ABegin 1 3600 3 []; AWrite 1 [67]; AAbort 1;                                (* failed store *)
    ABegin 0 3600 4 []; ACommit 0;                                              (* empty store over an existing key *)
    ABegin 2 (-5) 5 []; AWrite 2 [68;68]; ACommit 2; ACleanup []; ADelete 7 ].  (* expiry, delete of a missing key *)

Example ex_overwrite_file :
  let s := run File 1000 ex_overwrite in
  (s_bs s, s_mb s, s_me s, dir_listing s, map fst (retrievable File s)) = (3, 3, 1, [(0, 3)], [0]).
Proof. vm_compute. reflexivity. Qed.

Example ex_overwrite_mem :
  let s := run Mem 1000 ex_overwrite in
  (s_bs s, s_mb s, s_me s, map fst (retrievable Mem s)) = (0, 0, 1, [0]).   (* memory accepts the empty body *)
Proof. vm_compute. reflexivity. Qed.

Example ex_dirty_restart :
  let s := run File 1000 [ABegin 0 10 1 []; AWrite 0 [1;2]; ACommit 0; ABegin 1 10 2 []; AWrite 1 [3]] in
  (dir_listing s, quiescent s) = ([(0, 2); (3, 1)], false).                 (* <hex1>.tmp with 1 byte is on disk *)
Proof. vm_compute. reflexivity. Qed.

(* The two size counters at the granularity of their individual updates: any number of concurrent
   stores and removals, each moving the cache's byte counter first and the reported bytes_cached metric
   second, interleaved in any way.  Whenever no update is half-way (quiescence), the reported metric
   equals the byte counter. *)
Theorem C12_metric_quiescent : forall l s',
  crun false c_init l = Some s' -> quiescent_c s' = true -> c_metric s' = c_bytes s'.
Proof. exact metric_quiescent. Qed.
Print Assumptions C12_metric_quiescent.

(* With the janitor overwriting the metric by the byte counter it reads (the code before the repair)
   the claim is false: one cleanup cycle between the two halves of one store. *)
Theorem C12_metric_quiescent_refuted_with_janitor_set :
  exists l s', crun true c_init l = Some s' /\ quiescent_c s' = true /\ c_metric s' <> c_bytes s'.
Proof. exact metric_quiescent_refuted_with_set. Qed.
Print Assumptions C12_metric_quiescent_refuted_with_janitor_set.
