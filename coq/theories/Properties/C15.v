(* C15 — Shared proxy state is free of data races.  Statements only. *)
From Reservoir Require Import Base.Prelude Model.Sync Model.Race Model.RaceTable Model.Lockset Model.Discipline Model.Inventory Proofs.Race Proofs.RaceTable Proofs.Discipline.

(* Lockset discipline => race freedom: ANY number of threads, EVERY schedule.
   [guarded G [] p]: every plain read of a location x in p happens while holding G x, every
   plain write while holding it in write mode.  [has_race]: two different threads are both about
   to perform a plain access to the same location and one of them writes. *)
Theorem C15_lockset_sound : forall G ps sched s',
  forallb (guarded G []) ps = true ->
  rrun (rspawn ps) sched = Some s' -> has_race s' = false.
Proof. exact lockset_sound. Qed.
Print Assumptions C15_lockset_sound.

(* The three-way sharing discipline of the shared-state inventory: every location is lock-guarded, or never
   written once the threads run, or confined to one thread.  ANY number of threads, EVERY schedule: no race.
   (C15_lockset_sound is the special case in which every location is guarded: C15_guarded_is_disciplined.) *)
Theorem C15_discipline_sound : forall C ps sched s',
  disc_all C 0%nat ps = true ->
  rrun (rspawn ps) sched = Some s' -> has_race s' = false.
Proof. exact discipline_sound. Qed.
Print Assumptions C15_discipline_sound.

Theorem C15_guarded_is_disciplined : forall G C me,
  (forall x g, G x = Some g -> C x = CGuard g) ->
  forall p h, guarded G h p = true -> disc C me h p = true.
Proof. exact guarded_disc. Qed.
Print Assumptions C15_guarded_is_disciplined.

(* Every operation of the access table obeys the discipline, for EVERY key -> shard map
   (every shard count, every hash) and every key / victim list. *)
Theorem C15_table_guarded : forall sh p, table_op sh p -> guarded (G sh) [] p = true.
Proof. exact table_guarded. Qed.
Print Assumptions C15_table_guarded.

(* Hence: cache API calls on both backends, store-triggered eviction, janitor cycles, the memory
   budget listener, event subscribe / unsubscribe / fire / delivery, SyncMap operations, session
   lookups and GC, certificate issuance — any number of each, interleaved in any way — never race. *)
Theorem C15_table_race_free : forall sh ps sched s',
  (forall p, In p ps -> table_op sh p) ->
  rrun (rspawn ps) sched = Some s' -> has_race s' = false.
Proof. exact table_race_free. Qed.
Print Assumptions C15_table_race_free.

(* The location encoding used by the table is injective (dec is a left inverse). *)
Theorem C15_locations_distinct : forall x, dec (enc x) = x.
Proof. exact dec_enc. Qed.
Print Assumptions C15_locations_distinct.

(* The checks discriminate: operations of the code BEFORE the repairs are rejected, and they race. *)
Definition sh1 : nat -> nat := fun _ => 0%nat.

(* janitor scan reading live metadata without the entry's lock, against UpdateMetadata *)
Example ex_old_scan_unguarded : guarded (G sh1) [] (old_janitor_scan [0%nat]) = false.
Proof. vm_compute. reflexivity. Qed.

Example ex_old_scan_races :
  exists s', rrun (rspawn [old_janitor_scan [0%nat]; op_update sh1 0])
                  [(0,true);(0,true);(0,true);(1,true);(1,true);(1,true);(1,true);(1,false)]%nat = Some s'
             /\ has_race s' = true.
Proof. eexists. split; vm_compute; reflexivity. Qed.

(* the repaired scan against the same writer: guarded, and the same prefix of a schedule cannot
   even be run to a conflicting state (the TryRLock fails while the writer holds the shard lock) *)
Example ex_new_scan_guarded : guarded (G sh1) [] (op_janitor_cycle sh1 [0%nat] [] [] []) = true.
Proof. vm_compute. reflexivity. Qed.

(* SyncMap iteration without the lock against a Set: the runtime's "concurrent map iteration and map write" *)
Example ex_old_iterate_races :
  exists s', rrun (rspawn [old_sm_iterate 0; op_sm_set 0]) [(1,true)]%nat = Some s' /\ has_race s' = true.
Proof. eexists. split; vm_compute; reflexivity. Qed.

(* a regenerated lockset record: field 0 read while holding the map lock in read mode is fine, a write is not *)
Example ex_access_ok :
  access_ok (fun _ => SMu) (mk_access 0 false [(SMu, AR)]) = true /\
  access_ok (fun _ => SMu) (mk_access 0 true [(SMu, AR)]) = false /\
  access_ok (fun _ => SMu) (mk_access 0 false [(SShard 1, AW)]) = false.
Proof. repeat split; reflexivity. Qed.

(* The discipline discriminates: a reader and a writer of a read-only location race, and the writer is rejected;
   two threads may both read it; a confined location may be written by its owner only. *)
Definition Cx : loc -> lclass := fun x => match x with O => CReadOnly | S O => COwner 1%nat | _ => CGuard Mu end.
Example ex_readonly_two_readers : disc_all Cx 0%nat [RAcc 0%nat false RDone; RAcc 0%nat false (RAcc 1%nat true RDone)] = true.
Proof. vm_compute. reflexivity. Qed.
Example ex_readonly_writer_rejected : disc_all Cx 0%nat [RAcc 0%nat false RDone; RAcc 0%nat true RDone] = false.
Proof. vm_compute. reflexivity. Qed.
Example ex_readonly_writer_races : has_race (rspawn [RAcc 0%nat false RDone; RAcc 0%nat true RDone]) = true.
Proof. vm_compute. reflexivity. Qed.
Example ex_confined_foreign_rejected : disc_all Cx 0%nat [RAcc 1%nat true RDone; RAcc 1%nat true RDone] = false.
Proof. vm_compute. reflexivity. Qed.

(* The inventory classifier: a field without post-publication writes is fine; a plain counter bumped in Get is not;
   the map of the memory backend is accepted because the lockset tables decide its accesses. *)
From Coq Require Import String.
Open Scope string_scope.
Example ex_inventory_classifier :
  unclassified [ mk_loc "cache.MemoryCache.locks" "[]sync.RWMutex" false [];
                 mk_loc "cache.MemoryCache.hits" "int" false [mk_w "cache:MemoryCache.Get" WSlot];
                 mk_loc "cache.MemoryCache.entries" "map[cache.CacheKey]*cache.memoryInternalEntry[MetadataT]" false [mk_w "cache:MemoryCache.cacheInternal" WElem] ]
  = ["cache.MemoryCache.hits"].
Proof. vm_compute. reflexivity. Qed.

(* a mutex outside the packages whose skeleton is regenerated is reported *)
Example ex_unknown_lock :
  unknown_locks [ mk_loc "cache.MemoryCache.mu" "sync.RWMutex" true [];
                  mk_loc "proxy.fetcher.mu" "sync.Mutex" true [] ] = ["proxy.fetcher.mu"].
Proof. vm_compute. reflexivity. Qed.
