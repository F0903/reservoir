(* C10 — Each exchange on a CONNECT tunnel is isolated and equals plain proxying.
   This file contains only statements; the proof of every theorem is [exact <lemma>], a line from a more general
   lemma of Proofs/Tunnel.v, or, for a closed instance, an evaluation.
   Vocabulary (Model/Tunnel.v):
     exchange          one request as handleHTTP sees it: method class, protocol, the branch taken and its data
     tunnel_run xs     the wire responses of the tunnel loop of handleCONNECT for the requests xs, in order
     tunnel_loop b s   the same loop started in responder state s; b = the responder is kept across requests
     single_exchange x the wire responses of x alone on a tunnel of its own
     plain_run xs      the same requests through HTTPResponder, net/http giving every request a new ResponseWriter
     proj w            (status, header map without framing fields -- X-Cache included --, relayed body) *)
From Reservoir Require Import Base.Prelude Model.Relay Model.Tunnel Proofs.Relay Proofs.Tunnel.

(* However many requests the tunnel carries, the responses are those each request gets alone. *)
Theorem C10_isolation : forall xs, tunnel_run xs = map single_exchange xs.
Proof. exact (tunnel_isolation_any_state fresh). Qed.
Print Assumptions C10_isolation.

(* ... from whatever responder state the tunnel is in ... *)
Theorem C10_isolation_any_state : forall s xs, tunnel_loop false s xs = map single_exchange xs.
Proof. exact tunnel_isolation_any_state. Qed.
Print Assumptions C10_isolation_any_state.

(* ... so a response never depends on what came before it on the tunnel. *)
Theorem C10_no_leak : forall pre pre' x,
  nth (length pre) (tunnel_run (pre ++ [x])) [] = nth (length pre') (tunnel_run (pre' ++ [x])) [].
Proof. intros pre pre' x. unfold tunnel_run. rewrite !tunnel_isolation_any_state, !nth_map_snoc. reflexivity. Qed.
Print Assumptions C10_no_leak.

(* The loop that keeps one responder (the code before the fix) is not isolated: the model itself
   exhibits the leak, so the theorem above is about the construction of the responder per request. *)
Theorem C10_shared_responder_leaks :
  tunnel_loop true fresh [leak_first; leak_second] <> map single_exchange [leak_first; leak_second].
Proof. vm_compute. discriminate. Qed.
Print Assumptions C10_shared_responder_leaks.

(* Tunnel = plain proxying on status, end-to-end fields, X-Cache and body, for every history. *)
Theorem C10_equals_plain : forall xs,
  Forall sane_exchange xs -> map (map proj) (tunnel_run xs) = map (map proj) (plain_run xs).
Proof. exact tunnel_equals_plain. Qed.
Print Assumptions C10_equals_plain.

(* The two responders agree for every sequence of header calls followed by one write. *)
Theorem C10_responders_agree : forall sc,
  wf_script sc -> map proj (snd (raw_script fresh sc)) = map proj (plain_script sc).
Proof. exact script_responders_agree. Qed.
Print Assumptions C10_responders_agree.

Theorem C10_same_xcache : forall x w w',
  sane_exchange x -> single_exchange x = [w] -> plain_exchange x = [w'] ->
  hraw_get s_X_Cache (w_hdrs w) = hraw_get s_X_Cache (w_hdrs w') /\ w_status w = w_status w'.
Proof. exact tunnel_same_xcache. Qed.
Print Assumptions C10_same_xcache.

(* --- non-vacuity -------------------------------------------------------- *)
(* the leaking pair, on the loop as it is now: second response chunked, whole body, no Content-Range *)
Example ex_now :
  match nth 1 (tunnel_run [leak_first; leak_second]) [] with
  | [w] => w_body w = [104;101;108;108;111;32;119;111;114;108;100] /\ hraw_get s_Content_Range (w_hdrs w) = [] /\ w_framing w = FChunked
  | _ => False
  end.
Proof. vm_compute. repeat split. Qed.
Example ex_before :
  match nth 1 (tunnel_loop true fresh [leak_first; leak_second]) [] with
  | [w] => w_body w = [104;101;108;108] /\ hraw_get s_Content_Range (w_hdrs w) <> [] /\ w_framing w = FLen 4
  | _ => False
  end.
Proof. vm_compute. repeat split; discriminate. Qed.
Example ex_first_is_206 :
  match nth 0 (tunnel_run [leak_first; leak_second]) [] with
  | [w] => w_status w = 206 /\ w_framing w = FLen 4 /\ w_body w = [50;51;52;53]
  | _ => False
  end.
Proof. vm_compute. repeat split. Qed.
(* HEAD and 204: nothing follows the header block *)
Example ex_head_chunked :
  match single_exchange {| x_meth := MHead; x_proto := []; x_kind := KDirect 200 [] []; x_body := [1;2;3] |} with
  | [w] => w_body w = [] /\ w_framing w = FChunked
  | _ => False
  end.
Proof. vm_compute. repeat split. Qed.
Example ex_204 :
  match single_exchange {| x_meth := MPlain; x_proto := []; x_kind := KDirect 204 [] []; x_body := [] |} with
  | [w] => w_body w = [] /\ w_framing w = FBare
  | _ => False
  end.
Proof. vm_compute. repeat split. Qed.
Example ex_sane : sane_exchange leak_second.
Proof. apply sane_exchange_final. vm_compute. split; intros; discriminate. Qed.
