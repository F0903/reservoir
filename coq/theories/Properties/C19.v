(* C19 — Components follow the latest setting; unsubscribing is safe in any order.
   This file contains only statements; the proof of every theorem is [exact <lemma>] or a line
   or two from a more general lemma of Proofs/Event.v.

   Model/Event.v is a labelled transition system: ASub / AUnsub id / AFire v are
   the API calls, ADeliver id is one iteration of a listener's delivery
   goroutine, AReturn id is the listener function returning.  A trace is any
   list of these actions, so "for all traces" covers every sequence of
   subscribe / unsubscribe / change, every unsubscribe order (with repeats) and
   every scheduling of the asynchronous notifications. *)
From Reservoir Require Import Base.Prelude Model.Event Proofs.Event Model.ConfigProp Proofs.ConfigProp.

(* Unsubscribing in any order neither fails nor detaches the others: no trace
   panics, and the subscriber list always equals the reference set
   "subscribed and not unsubscribed" (in subscription order); subscription
   ids are never reused; the event has seen exactly the fired values. *)
Theorem C19_unsub_any_order : forall t : list act,
  exists st, run t = Ok st /\
             e_subs st = sp_live (spec_run t) /\
             length (e_heap st) = sp_next (spec_run t) /\
             e_fired st = sp_fired (spec_run t).
Proof. intros t. destruct (run_refines t) as (st & E & _ & R). exists st. split; assumption. Qed.
Print Assumptions C19_unsub_any_order.

Theorem C19_no_panic : forall t : list act, run t <> Panic.
Proof. intros t. destruct (run_refines t) as (st & E & _). congruence. Qed.
Print Assumptions C19_no_panic.

(* ... where the reference set is what it should be: id is live after t iff it was
   live before and never unsubscribed, or was created by a Subscribe of t and not unsubscribed since. *)
Theorem C19_reference_is_set_difference : forall t s id,
  In id (sp_live (fold_left spec_step t s)) <->
  (In id (sp_live s) /\ ~ In (AUnsub id) t) \/
  (exists t1 t2, t = t1 ++ ASub :: t2 /\ id = sp_next (fold_left spec_step t1 s) /\ ~ In (AUnsub id) t2).
Proof. exact spec_live_char. Qed.
Print Assumptions C19_reference_is_set_difference.

(* A listener that has been unsubscribed is never called again, whatever happens afterwards:
   its call log after any continuation equals its call log at the moment of the unsubscribe. *)
Theorem C19_no_late_notification : forall (t1 t2 : list act) (id : nat) (st1 st : est),
  run t1 = Ok st1 -> (id < length (e_heap st1))%nat ->
  run (t1 ++ AUnsub id :: t2) = Ok st ->
  s_log (get (e_heap st) id) = s_log (get (e_heap st1) id).
Proof.
  intros t1 t2 id st1 st H1 Hid H. unfold run in *. rewrite run_from_app, H1 in H.
  exact (no_late_notification t2 st1 st id (run_inv t1 st1 H1) Hid H).
Qed.
Print Assumptions C19_no_late_notification.

(* Every live listener has been handed exactly the values fired since it subscribed, in
   firing order, except those still queued for it - under every schedule; and whenever
   something is queued or a call is in progress its delivery goroutine exists (no lost wake-up). *)
Theorem C19_exact_fifo : forall (t : list act) (st : est) (id : nat),
  run t = Ok st -> In id (e_subs st) ->
  let s := get (e_heap st) id in
  s_log s ++ s_pending s = skipn (s_since s) (e_fired st) /\
  (s_pending s <> [] -> s_running s = true) /\ (s_incall s = true -> s_running s = true).
Proof.
  intros t st id H Hin. destruct (live_sub_ok st id (run_inv t st H) Hin) as (_ & A & E & R & _ & C & _). auto.
Qed.
Print Assumptions C19_exact_fifo.

(* Latest wins: once nothing is queued for a live listener, the last value it was called
   with is the last value fired (if any was fired since it subscribed). *)
Theorem C19_latest_wins : forall (t : list act) (st : est) (id : nat) (d : Z),
  run t = Ok st -> In id (e_subs st) ->
  let s := get (e_heap st) id in
  s_pending s = [] -> (s_since s < length (e_fired st))%nat ->
  last (s_log s) d = last (e_fired st) d.
Proof.
  intros t st id d H Hin. apply sub_ok_latest, (live_sub_ok st id (run_inv t st H) Hin).
Qed.
Print Assumptions C19_latest_wins.

(* Progress towards that state: a live listener outside a call with a queued value is
   handed the oldest queued value by the next iteration of its goroutine. *)
Theorem C19_progress : forall (t : list act) (st : est) (id : nat) (v : Z) (rest : list Z),
  run t = Ok st -> In id (e_subs st) ->
  let s := get (e_heap st) id in
  s_pending s = v :: rest -> s_incall s = false ->
  exists st', step st (ADeliver id) = Ok st' /\
              s_log (get (e_heap st') id) = s_log s ++ [v] /\ s_pending (get (e_heap st') id) = rest.
Proof. intros t st id v rest H. exact (deliver_progress st id v rest (run_inv t st H)). Qed.
Print Assumptions C19_progress.

(* Switches that are not pushed but read at use (cache policy, retry switches): the request
   path calls Read() on every request, and after every history of overrides and updates
   Read() returns the latest effective value. *)
Theorem C19_live_reads : forall (T : Type) (v0 : T) (ops : list (cop T)),
  cp_read (crun (cp_new v0) ops) = ref_read ops v0.
Proof. exact @live_read_lemma. Qed.
Print Assumptions C19_live_reads.

(* Non-vacuity.  Three listeners, unsubscribe the first and then the last (the
   history that panicked before the fix), then a change: only listener 1 gets it. *)
Definition demo := [ASub; ASub; ASub; AUnsub 0; AUnsub 2; AFire 7; ADeliver 1; ADeliver 0; ADeliver 2]%nat.
Example ex_first_then_last :
  match run demo with
  | Ok st => e_subs st = [1%nat] /\ map s_log (e_heap st) = [[]; [7]; []]
  | _ => False
  end.
Proof. vm_compute. split; reflexivity. Qed.
(* first then second: the third listener stays subscribed (it used to be detached) *)
Example ex_first_then_second :
  match run [ASub; ASub; ASub; AUnsub 0; AUnsub 1; AFire 7; ADeliver 2]%nat with
  | Ok st => e_subs st = [2%nat] /\ map s_log (e_heap st) = [[]; []; [7]]
  | _ => False
  end.
Proof. vm_compute. split; reflexivity. Qed.
(* two quick changes while the listener is still busy with the first: it sees 1 then 2 then 3 *)
Example ex_back_to_back :
  match run [ASub; AFire 1; ADeliver 0; AFire 2; AFire 3; AReturn 0; ADeliver 0; AReturn 0; ADeliver 0; AReturn 0; ADeliver 0]%nat with
  | Ok st => map s_log (e_heap st) = [[1; 2; 3]] /\ quiescent st = true
  | _ => False
  end.
Proof. vm_compute. split; reflexivity. Qed.
(* values queued at unsubscribe are dropped; the call in progress is not repeated *)
Example ex_unsub_while_busy :
  match run [ASub; AFire 1; ADeliver 0; AFire 2; AUnsub 0; AReturn 0; ADeliver 0; AFire 3; ADeliver 0]%nat with
  | Ok st => map s_log (e_heap st) = [[1]] /\ e_subs st = []
  | _ => False
  end.
Proof. vm_compute. split; reflexivity. Qed.
