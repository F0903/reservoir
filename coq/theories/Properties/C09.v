(* C09 — Cache-side trouble never turns a good origin answer into an error.
   This file contains only statements; the proof of every theorem is [exact <lemma>].

   Model/Proxy.v: [proxy_step cfg now st rq answers flt] is one client request without a
   Range field; [answers] are the origin's results in the order its upstream requests
   arrive, [flt] says what the cache does underneath the request: the lookup fails, the
   entry is removed (evicted, deleted, replaced) while the upstream exchange is in flight,
   the store is refused (full with nothing evictable, empty body, create / write error),
   the entry is gone or unreadable between the 304's metadata update and the re-read.
   A history is any list of clock advances, configuration switches, removals of the entry
   between requests and requests, each request with its own answers and its own faults.
   [proxy_step] is a total function: every request terminates with a response. *)
From Reservoir Require Import Base.Prelude Base.Strings Model.Freshness Model.Proxy Proofs.Proxy.
From Reservoir Require Model.Coalesce Proofs.Coalesce.

(* For ALL histories and ALL fault oracles: if the origin answered every upstream request of a
   client request, each time with 2xx or 304 ([origin_good]), then the client receives one of
   those very answers, or a 200 built from a stored body that the origin handed out in a 200
   answer earlier in the history (or just now) - never the proxy's own 502. *)
Theorem C09_no_manufactured_error : forall cfg0 now0 h evs1 ev evs2,
  events (init_state cfg0 now0) h = evs1 ++ ev :: evs2 ->
  origin_good ev ->
  match ev_resp ev with
  | RRelay a => In (OAnswer a) (consumed ev)
  | RStored _ _ e => exists a, In a (issued (evs1 ++ [ev])) /\ from_answer a e
  | RBadGateway => False
  end.
Proof. exact no_manufactured_error. Qed.
Print Assumptions C09_no_manufactured_error.

(* the same in status codes: the client sees 2xx or 304 *)
Theorem C09_status_is_good : forall cfg0 now0 h evs1 ev evs2,
  events (init_state cfg0 now0) h = evs1 ++ ev :: evs2 -> origin_good ev ->
  is_2xx (status_of (ev_resp ev)) || (status_of (ev_resp ev) =? 304) = true.
Proof. exact good_status. Qed.
Print Assumptions C09_status_is_good.

(* One step from ANY state (reachable or not), any answers, any faults: the response is a stored
   entry (the one present before, or the one the step leaves behind), an answer the origin gave
   during the step, or - only if some upstream request got no answer - the proxy's 502; the entry
   afterwards is gone, unchanged, renewed, or the 200 answer just received. *)
Theorem C09_step_shape : forall cfg now st rq answers flt st' resp ups,
  proxy_step cfg now st rq answers flt = (st', resp, ups) ->
  entry_shape cfg now st (firstn (length ups) answers) st'
  /\ match resp with
     | RStored hs us e =>
         (hs = HsHit /\ st = Some e /\ st' = st /\ ups = []) \/ (hs <> HsHit /\ st' = Some e /\ ups <> [])
     | RRelay a => In (OAnswer a) (firstn (length ups) answers)
     | RBadGateway => ~ all_answered ups answers
     end.
Proof. exact proxy_step_shape. Qed.
Print Assumptions C09_step_shape.

(* Concurrent requests for one key (Model/Coalesce.v: every interleaving of arrivals, the shared
   fetch, hand-overs, client disconnects and evictions, any number of clients, every origin answer
   kind including a body the origin cuts short and a 304 for an entry evicted meanwhile): no client
   ever receives the proxy's own error.  Another client hanging up, or the entry disappearing
   between the shared fetch and a follower's own lookup, costs nobody their answer. *)
Theorem C09_coalesced_never_error : forall ks tr s,
  Coalesce.run (Coalesce.init ks) tr = Some s -> forall c, Coalesce.ph s c <> Coalesce.Done Coalesce.RError.
Proof. exact Coalesce.never_error. Qed.
Print Assumptions C09_coalesced_never_error.

(* ---- the hypotheses are satisfiable: faults that used to end in 502 -------------------------------- *)

Definition ex_cfg : pconfig := {| pc_pol := {| ignore_cc := false; force_default := false; default_age := 3600 * second |};
                                  pc_retry416 := false |}.
Definition ex_hv : hview := {| cc_lines := [[109;97;120;45;97;103;101;61;54;48]]; expires := ExpAbsent; resp_range := false |}.
Definition ex_a (v : Z) : oanswer := {| oa_status := 200; oa_hv := ex_hv; oa_version := v; oa_etag := [34;97;34]; oa_lm := None |}.
Definition ex_304 : oanswer := {| oa_status := 304; oa_hv := {| cc_lines := []; expires := ExpAbsent; resp_range := false |};
                                  oa_version := 1; oa_etag := []; oa_lm := None |}.
Definition ex_get : request := {| rq_meth := GET; rq_hdr := [] |}.
Definition ex_full : faults := {| f_lookup_err := false; f_vanish := false; f_store_fail := true; f_reget := RgOk |}.
Definition ex_vanish : faults := {| f_lookup_err := false; f_vanish := true; f_store_fail := false; f_reget := RgOk |}.

(* store refused on a miss, then: stored, aged, revalidated with 304 while the entry is evicted *)
Definition ex_history : list hstep :=
  [ Request ex_get [OAnswer (ex_a 1); OAnswer (ex_a 1)] ex_full;
    Request ex_get [OAnswer (ex_a 1)] no_faults;
    Advance (100 * second);
    Request ex_get [OAnswer ex_304; OAnswer (ex_a 2)] ex_vanish ].

Example C09_example :
  map (fun ev => (status_of (ev_resp ev), version_of (ev_resp ev), length (ev_ups ev), from_store (ev_resp ev)))
      (events (init_state ex_cfg 0) ex_history)
  = [(200, 1, 2%nat, false); (200, 1, 1%nat, true); (200, 2, 2%nat, false)]
  /\ Forall origin_good (events (init_state ex_cfg 0) ex_history).
Proof.
  vm_compute. split; [reflexivity|]. repeat constructor; try reflexivity; intros; discriminate.
Qed.
