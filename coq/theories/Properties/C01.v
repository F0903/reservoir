(* C01 — Served bodies are complete, unmixed origin bodies of the requested resource
   (cache-store part: both backends, every interleaving at lock granularity plus
   the lock-free reads of open handles between the chunks of a running store).
   Statements only; the proof of every theorem is [exact <lemma>] or a line or two from a more general lemma
   of Proofs/Store.v (the last two theorems: of Proofs/FetchOrder.v). *)
From Reservoir Require Import Base.Prelude Base.Amap Model.Store Proofs.Store Model.FetchOrder Proofs.FetchOrder.

(* Handle integrity.  Take ANY history [pre]; let action [a] hand out a handle
   [h] (a Get, or the completion of a store) announcing size [sz] and origin
   metadata [o]; let ANY actions [acts] follow that do not close h or restart
   the process (stores, overwrites and failed stores of the same and other keys
   at any chunk boundary, deletes, evictions, cleanup cycles, other readers ...).
   Then there is one body such that
     - it is the version of that key that was current when h was opened
       (for a store: exactly the bytes its source delivered, see C01_store_complete),
     - the announced size is its length,
     - the chunks read through h, concatenated, are exactly its first
       [requested] bytes (so reading to EOF yields all of it, nothing else),
     - every read reports the same size and metadata. *)
Theorem C01_handle_integrity : forall b lim pre a s1 h sz o st acts,
  step b lim (run b lim pre) a = (s1, RHandle h sz o st) ->
  keeps_handle h acts = true ->
  exists body,
    opened_version b (run b lim pre) a = Some (body, o) /\
    sz = zlen body /\
    concat (chunks_read h acts (outs_from b lim s1 acts)) = zfirstn (requested h acts) body /\
    read_metas h sz o acts (outs_from b lim s1 acts).
Proof. intros b lim pre. apply handle_integrity, run_inv. Qed.
Print Assumptions C01_handle_integrity.

(* One step of it: nothing but a read through h / closing h / a restart changes what h will still deliver. *)
Theorem C01_handle_stable : forall b lim s a h v,
  Inv b s -> hview s h = Some v -> reads_handle h a = false -> ends_handle h a = false ->
  hview (fst (step b lim s a)) h = Some v.
Proof. exact hview_stable. Qed.
Print Assumptions C01_handle_stable.

(* A store that runs from Begin to Commit publishes exactly the concatenation
   of the chunks its source delivered, whatever happens in between. *)
Theorem C01_store_complete : forall b lim s k ex ob ev s1 acts s2 h sz o st,
  Inv b s -> step b lim s (ABegin k ex ob ev) = (s1, RUnit) ->
  forallb (fun a => negb (ends_store k a)) acts = true ->
  step b lim (run_from b lim s1 acts) (ACommit k) = (s2, RHandle h sz o st) ->
  current b s2 k = Some (written_to k acts, sz, ob) /\ hview s2 h = Some (written_to k acts, sz, ob) /\
  sz = zlen (written_to k acts) /\ o = ob.
Proof. exact store_complete. Qed.
Print Assumptions C01_store_complete.

(* The current version of a key changes only by a completed store to that key;
   every other action leaves it alone or removes it (never another body). *)
Theorem C01_current_step : forall b lim s a k,
  Inv b s ->
  let s' := fst (step b lim s a) in
  current b s' k = current b s k \/ current b s' k = None \/
  (a = ACommit k /\ exists h sz o st, snd (step b lim s a) = RHandle h sz o st).
Proof. intros b lim s a k I. destruct (step_current b lim s a k I) as [H|[[H _]|H]]; auto. Qed.
Print Assumptions C01_current_step.

(* No resurrection: once a key has no current version (deleted, evicted,
   expired and cleaned, restart), no history without a completed store to it
   makes a Get return a handle again. *)
Theorem C01_no_resurrection : forall b lim s k acts h sz o st,
  Inv b s -> current b s k = None -> no_commit k acts = true ->
  snd (step b lim (run_from b lim s acts) (AGet k)) <> RHandle h sz o st.
Proof. exact no_resurrection. Qed.
Print Assumptions C01_no_resurrection.

(* ... and the removals do remove. *)
Theorem C01_delete_removes : forall b lim s k,
  Inv b s -> pending s k = false -> current b (fst (step b lim s (ADelete k))) k = None.
Proof. exact delete_removes. Qed.
Print Assumptions C01_delete_removes.

Theorem C01_evict_removes : forall b lim s ks k,
  Inv b s -> In k ks -> pending s k = false -> current b (fst (step b lim s (AEvict ks))) k = None.
Proof. exact evict_removes. Qed.
Print Assumptions C01_evict_removes.

Theorem C01_cleanup_removes : forall b lim s skip k e,
  Inv b s -> aget k (s_ents s) = Some e -> e_exp e < s_now s -> memb k skip = false -> pending s k = false ->
  current b (fst (step b lim s (ACleanup skip))) k = None.
Proof. exact cleanup_removes. Qed.
Print Assumptions C01_cleanup_removes.

(* After a replacement every later Get (until the next completed store) that
   returns a handle returns the NEW version, never the replaced one. *)
Theorem C01_replaced_not_served : forall b lim s k s1 h sz o st acts s2 h2 sz2 o2 st2,
  Inv b s -> step b lim s (ACommit k) = (s1, RHandle h sz o st) -> no_commit k acts = true ->
  step b lim (run_from b lim s1 acts) (AGet k) = (s2, RHandle h2 sz2 o2 st2) ->
  exists d, pending_body b s k = Some (d, o) /\ hview s2 h2 = Some (d, sz, o) /\ sz2 = sz /\ o2 = o.
Proof. exact replaced_not_served. Qed.
Print Assumptions C01_replaced_not_served.

(* An action addressed to key k does not change the current version of any other key. *)
Theorem C01_keys_independent : forall b lim s a k k',
  Inv b s -> key_of a = Some k -> k' <> k ->
  (forall ex ob ev, a = ABegin k ex ob ev -> ~ In k' ev) ->
  current b (fst (step b lim s a)) k' = current b s k'.
Proof. exact keys_independent. Qed.
Print Assumptions C01_keys_independent.

(* The invariant these theorems assume holds in every reachable state. *)
Theorem C01_reachable_inv : forall b lim acts, Inv b (run b lim acts).
Proof. exact run_inv. Qed.
Print Assumptions C01_reachable_inv.

(* ---- non-vacuity: a reader holds v1 while v2 is written chunk by chunk, then deleted ---- *)
Definition ex_pre : list act := [ABegin 0 3600 1 []; AWrite 0 [65;65;65;65;65]; ACommit 0].
Definition ex_acts : list act :=
  [ ARead 1 2; ABegin 0 3600 2 []; ARead 1 1; AWrite 0 [66;66]; ARead 1 1; AWrite 0 [66]; ACommit 0;
    ADelete 0; AEvict [0; 1]; ARead 1 100; ARead 1 5 ].

Example ex_held_reader_file :
  let s0 := run File 1000 ex_pre in
  let '(s1, o) := step File 1000 s0 (AGet 0) in
  (o, keeps_handle 1 ex_acts, requested 1 ex_acts,
   concat (chunks_read 1 ex_acts (outs_from File 1000 s1 ex_acts))) =
  (RHandle 1 5 1 false, true, 109, [65;65;65;65;65]).
Proof. vm_compute. reflexivity. Qed.

Example ex_held_reader_mem :
  let s0 := run Mem 1000 ex_pre in
  let '(s1, o) := step Mem 1000 s0 (AGet 0) in
  (o, concat (chunks_read 1 ex_acts (outs_from Mem 1000 s1 ex_acts))) = (RHandle 1 5 1 false, [65;65;65;65;65]).
Proof. vm_compute. reflexivity. Qed.

Example ex_no_resurrection :
  let s := run File 1000 (ex_pre ++ [ADelete 0; ABegin 0 10 2 []; AWrite 0 [1]; AAbort 0]) in
  (current File s 0, snd (step File 1000 s (AGet 0))) = (None, RMiss).
Proof. vm_compute. reflexivity. Qed.

(* The order in which origin answers are stored (Model/FetchOrder.v).  When the fetches of a resource are
   serialised -- what singleflight does for coalesced GETs -- no request ever receives an older version
   than an earlier request did, for every history of content changes, fetches, stores and hits
   (the clause "a request that starts after an entry was replaced never receives the replaced body"
   at the level of the proxy).  PARTIAL: the hypothesis excludes independent fetches of one key ... *)
Theorem C01_no_resurrection_serialized_partial : forall l s',
  frun true f_init l = Some s' -> monotone_log (f_served s') = true.
Proof. exact serialized_fetches_monotone. Qed.
Print Assumptions C01_no_resurrection_serialized_partial.

(* ... and without it the clause is FALSE of the code: Range requests (and the retry paths) fetch and store
   on their own, so an older answer that is stored last replaces a newer one.  This witness, replayed on
   the implementation by harness/cmd/e2e01 (forced history "late store"), is the retained finding
   C01-late-store-of-older-answer. *)
Theorem C01_no_resurrection_refuted : exists l s',
  frun false f_init l = Some s' /\ monotone_log (f_served s') = false.
Proof. exact unserialized_fetches_refuted. Qed.
Print Assumptions C01_no_resurrection_refuted.
