(* C20 — Dashboard API needs a live session obtained with the right password.
   The theorems are stated here and each proved by [exact <lemma>]; the examples at the end are evaluated.

   Model/Auth.v is parameterised by the password-hash scheme (H, verify, mkhash) and by the
   route table; every theorem below holds for every scheme, every table satisfying the
   regenerated obligation [routes_guarded table = true], every state and every history.
   ReservoirGen.Routes.table is the snapshot of the table extracted from the source; the
   driver re-extracts it from the working tree on every run and re-checks the obligation. *)
From Reservoir Require Import Base.Prelude Model.Auth Proofs.Auth Model.Phc Proofs.Phc.
From ReservoirGen Require Routes.

Section C20.
Variable H : Type.
Variable verify : H -> Z -> bool.
Variable mkhash : Z -> H.

(* Every registered route except POST /api/auth/login demands a session. *)
Theorem C20_routes_guarded : forall table, routes_guarded table = true ->
  forall r, In r table -> is_login_route r = false -> r_auth r = true.
Proof. exact routes_guarded_sound. Qed.

(* ... in particular the routes of the repository (snapshot; re-extracted at every run). *)
Theorem C20_routes_guarded_snapshot :
  forall r, In r Routes.table -> is_login_route r = false -> r_auth r = true.
Proof. exact Routes.routes_guarded_here. Qed.

(* On a route other than login, a request without the cookie of a live session is answered
   401 (403 if the cross-site layer refuses it first) and has no effect: the effect list is
   empty (no handler invoked, no session touched) and the state is unchanged. *)
Theorem C20_unauth_no_effect : forall table (st : state H) q r,
  routes_guarded table = true ->
  mux table (q_method q) (q_path q) = MFound r ->
  is_login_route r = false ->
  authorises H st (q_cookie q) = false ->
  api_step H verify mkhash table st q =
    (if harden_blocks (q_method q) (q_origin q) (q_site q) then 403 else 401, []) /\
  apply_effects H st (snd (api_step H verify mkhash table st q)) = st.
Proof. exact (unauth_no_effect H verify mkhash). Qed.

(* Conversely, whatever happens happens past the cross-site layer on a registered route,
   and either on the login route or for the cookie of a live session. *)
Theorem C20_effects_need_session : forall table (st : state H) q,
  routes_guarded table = true ->
  snd (api_step H verify mkhash table st q) <> [] ->
  harden_blocks (q_method q) (q_origin q) (q_site q) = false /\
  exists r, mux table (q_method q) (q_path q) = MFound r /\
            (is_login_route r = true \/ authorises H st (q_cookie q) = true).
Proof. exact (effects_need_session H verify mkhash). Qed.

(* Session lifecycle: after ANY history of requests, clock advances, GC passes and out-of-band
   edits of stored hashes, started from an empty session table, a cookie authorises at the
   current instant iff the life read off the observable trace says so (life, Model/Auth.v):
   issued by a successful login; no accepted logout with it since; never presented at or after
   its expiry; now before the expiry obtained by the sliding rule.  GC passes, other session
   ids, refused requests and handler effects do not matter. *)
Theorem C20_session_lifecycle : forall table (st0 : state H) evs sid,
  (forall k, s_sess H st0 k = None) ->
  let '(st, tr) := run H verify mkhash table st0 evs in
  authorises H st (Some sid) =
    life_authorises (s_now H st) (snd (life H table sid (s_now H st0) LNone tr)).
Proof. exact (session_lifecycle H verify mkhash). Qed.

(* A lookup at or after expiry refuses and does not extend (one step, any route but login) ... *)
Theorem C20_expired_refused_not_extended : forall table (st : state H) q sid uid e r,
  routes_guarded table = true ->
  q_cookie q = Some sid -> s_sess H st sid = Some (uid, e) -> e <= s_now H st ->
  mux table (q_method q) (q_path q) = MFound r -> is_login_route r = false ->
  fst (api_step H verify mkhash table st q) <> 200 /\
  snd (api_step H verify mkhash table st q) = [] /\
  s_sess H (apply_effects H st (snd (api_step H verify mkhash table st q))) sid = Some (uid, e).
Proof. exact (expired_refused_not_extended H verify mkhash). Qed.

(* ... nor on any route at all, login included: the expired entry is left as it is. *)
Theorem C20_expired_never_extended : forall table (st : state H) q sid uid e,
  q_cookie q = Some sid -> s_sess H st sid = Some (uid, e) -> e <= s_now H st ->
  q_fresh q <> sid ->
  s_sess H (apply_effects H st (snd (api_step H verify mkhash table st q))) sid = Some (uid, e).
Proof. exact (expired_never_extended H verify mkhash). Qed.

(* ... and it is never revived: a session id that is dead (absent, logged out or expired) stays
   dead through every continuation in which no login issues that very id again. *)
Theorem C20_dead_stays_dead : forall table (st : state H) sid evs,
  authorises H st (Some sid) = false ->
  (match s_sess H st sid with Some (_, e) => e <= s_now H st | None => True end) ->
  let '(st', tr) := run H verify mkhash table st evs in
  (forall x, In (OReq x) tr -> x_new H x <> Some sid) ->
  authorises H st' (Some sid) = false.
Proof. exact (dead_stays_dead H verify mkhash). Qed.

(* Login: one step creates a session only on the login route, past the cross-site layer, for
   credentials whose password verifies against the stored, well-formed hash of the named user. *)
Theorem C20_login_needs_password : forall table (st : state H) q sid uid exp,
  In (ECreate sid uid exp) (snd (api_step H verify mkhash table st q)) ->
  login_ok H verify table st q = true /\ sid = q_fresh q /\ exp = s_now H st + lifetime.
Proof. exact (create_needs_password H verify mkhash). Qed.

(* ... and over histories: every session in the table was issued by such a login. *)
Theorem C20_sessions_need_password : forall table evs (st0 : state H) sid v,
  (forall k, s_sess H st0 k = None) ->
  s_sess H (fst (run H verify mkhash table st0 evs)) sid = Some v ->
  exists evs1 q evs2, evs = evs1 ++ EvReq q :: evs2 /\
    login_ok H verify table (fst (run H verify mkhash table st0 evs1)) q = true /\ q_fresh q = sid.
Proof. exact (sessions_need_password H verify mkhash). Qed.

(* Cross-site requests (Origin set and Sec-Fetch-Site present and not same-origin / same-site /
   none; or OPTIONS with Origin) get 403 before the mux: empty effect list, state unchanged. *)
Theorem C20_harden_first : forall table (st : state H) q,
  cross_site q = true \/ preflight q = true ->
  api_step H verify mkhash table st q = (403, []) /\
  apply_effects H st (snd (api_step H verify mkhash table st q)) = st.
Proof. exact (harden_first H verify mkhash). Qed.

End C20.

Print Assumptions C20_routes_guarded.
Print Assumptions C20_routes_guarded_snapshot.
Print Assumptions C20_unauth_no_effect.
Print Assumptions C20_effects_need_session.
Print Assumptions C20_session_lifecycle.
Print Assumptions C20_expired_refused_not_extended.
Print Assumptions C20_expired_never_extended.
Print Assumptions C20_dead_stays_dead.
Print Assumptions C20_login_needs_password.
Print Assumptions C20_sessions_need_password.
Print Assumptions C20_harden_first.

(* No stored password-hash string makes the parser behind login panic (the C16 slice). *)
Theorem C20_stored_hash_parse_total : forall s : str, phc_parse s <> Panic.
Proof. exact phc_parse_total. Qed.
Print Assumptions C20_stored_hash_parse_total.

(* ---------- non-vacuity: a concrete history on the repository's route table ---------- *)

Definition ex_verify (h p : Z) : bool := h =? p.
Definition ex_admin : user Z := {| u_name := [97;100;109;105;110]; u_id := 1; u_hash := Some 7 |}.
Definition ex_st0 : state Z := {| s_now := 0; s_sess := fun _ => None; s_users := [ex_admin]; s_cfg := 75 |}.
Definition ex_req (m : meth) (p : str) (c : option Z) (b : body) (fresh : Z) : request :=
  {| q_method := m; q_path := p; q_cookie := c; q_origin := []; q_site := []; q_body := b; q_fresh := fresh; q_hstatus := 200 |}.
Definition p_me : str := [47;97;112;105;47;97;117;116;104;47;109;101].
Definition minute : Z := 60 * 1000000000.

(* wrong password, right password, use, wait 55 min (inside the threshold: slides), wait 59 min (still
   alive thanks to the slide), wait 61 min (expired: refused), GC, use again (still refused), logout of a
   second session *)
Definition ex_history : list (event Z) :=
  [ EvReq (ex_req POST p_login None (BLogin [97;100;109;105;110] 8) 100)
  ; EvReq (ex_req POST p_login None (BLogin [97;100;109;105;110] 7) 101)
  ; EvReq (ex_req GET p_me (Some 101) BNone 0)
  ; EvAdvance (55 * minute)
  ; EvReq (ex_req GET p_me (Some 101) BNone 0)
  ; EvAdvance (59 * minute)
  ; EvReq (ex_req GET p_me (Some 101) BNone 0)
  ; EvAdvance (61 * minute)
  ; EvReq (ex_req GET p_me (Some 101) BNone 0)
  ; EvGC
  ; EvReq (ex_req GET p_me (Some 101) BNone 0)
  ; EvReq (ex_req POST p_login (Some 101) (BLogin [97;100;109;105;110] 7) 102)
  ; EvReq (ex_req POST p_logout (Some 102) BNone 0)
  ; EvReq (ex_req GET p_me (Some 102) BNone 0) ].

Definition ex_statuses : list Z :=
  flat_map (fun o => match o with OReq x => [x_status Z x] | _ => [] end)
           (snd (run Z ex_verify (fun p => p) Routes.table ex_st0 ex_history)).

Example ex_trace : ex_statuses = [401; 200; 200; 200; 200; 401; 401; 200; 204; 401].
Proof. vm_compute. reflexivity. Qed.

Example ex_guarded : routes_guarded Routes.table = true.
Proof. vm_compute. reflexivity. Qed.

Example ex_login_present : In (Build_route POST p_login false) Routes.table.
Proof. apply (find_some (route_matches POST p_login)). vm_compute. reflexivity. Qed.

(* the hypotheses of C20_unauth_no_effect are met by a guarded route and a dead cookie *)
Example ex_unauth :
  mux Routes.table GET p_me = MFound (Build_route GET p_me true) /\
  is_login_route (Build_route GET p_me true) = false /\
  authorises Z ex_st0 (Some 5) = false.
Proof. vm_compute. repeat split. Qed.

(* a live session exists in the example after the third request (the first use of the session the second
   created), and the trace-level life agrees *)
Example ex_live :
  let '(st, tr) := run Z ex_verify (fun p => p) Routes.table ex_st0 (firstn 3 ex_history) in
  authorises Z st (Some 101) = true /\
  snd (life Z Routes.table 101 0 LNone tr) = LLive lifetime.
Proof. vm_compute. split; reflexivity. Qed.

(* cross-site: Origin + Sec-Fetch-Site: cross-site on a live session's logout *)
Example ex_cross :
  cross_site {| q_method := POST; q_path := p_logout; q_cookie := Some 1;
                q_origin := [104;116;116;112;58;47;47;101]; q_site := [99;114;111;115;115;45;115;105;116;101];
                q_body := BNone; q_fresh := 0; q_hstatus := 0 |} = true.
Proof. vm_compute. reflexivity. Qed.

Example ex_phc_ok :
  phc_parse long_salt_witness = Err.
Proof. vm_compute. reflexivity. Qed.
