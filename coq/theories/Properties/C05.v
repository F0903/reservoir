(* C05 - Concurrent identical requests share one origin fetch; each gets a full answer.
   This file contains only statements; the proof of every theorem is [exact <lemma>] or a line from a more general
   lemma of Proofs/Coalesce.v.

   The model (Model/Coalesce.v) is a labelled transition system for one cache key:
   proxy/fetcher.go dedupFetch / getFromCacheOrFetch plus singleflight by its documented
   contract.  A trace is an arbitrary action list = an arbitrary interleaving of the atomic
   steps of any number of clients, of the proxy and of the origin; [run] is None when the
   list is not executable.  All theorems quantify over every trace.

   Partial: that N real goroutines calling group.Do while the first call is still running are
   all served by that one call is singleflight's contract (a trusted library law), and which
   goroutines arrive "during" the call is the Go scheduler's choice; the model covers every such
   choice (an Arrive joins the running flight, a later one starts a new flight that finds the
   stored entry), the harness forces the overlapping ones with a gate. *)
From Reservoir Require Import Base.Prelude Model.Coalesce Proofs.Coalesce.

(* One fetch.  For every arrival order and overlap of any number of clients on a cold, fresh or
   stale key (in particular when all of them arrive before the flight returns), as long as the
   origin's answers are storable and nothing is evicted: at most one origin request is ever
   made; and as soon as anybody has an answer, exactly one was made (none if the entry was
   fresh), it was a revalidation iff the entry was stale, and every answered client holds the
   complete stored version - all the same one, the one now in the cache.
   Disconnects at any point, of anybody, are part of the quantification. *)
Theorem C05_single_fetch : forall ks tr s,
  run (init ks) tr = Some s ->
  forallb (single_fetch_ok ks) tr = true ->
  origin_count s <= 1 /\
  forall c r, ph s c = Done r ->
    exists v, r = RStored v /\ cache s = Some (v, true) /\ In v (stored s) /\
      origin_count s = (match ks with Fresh => 0 | _ => 1 end) /\
      cond_count s = (match ks with Stale => 1 | _ => 0 end).
Proof. exact single_fetch. Qed.
Print Assumptions C05_single_fetch.

(* Everyone is answered (1): liveness.  In every reachable state, a client that is inside Do or
   past it can be brought to its answer by steps of the proxy, of the origin and of its own
   only: no step of any other client (disconnected, slow or not), no arrival, no eviction is
   needed. *)
Theorem C05_everyone_answered_progress : forall ks tr s c,
  run (init ks) tr = Some s ->
  ph s c = InFlight \/ (exists q, ph s c = Post q) ->
  exists tr' s' r, forallb (step_for c) tr' = true /\ run s tr' = Some s' /\ ph s' c = Done r.
Proof. exact no_client_stuck. Qed.
Print Assumptions C05_everyone_answered_progress.

(* Everyone is answered (2): what the answer is, in every trace.  A cached answer is a version
   that was stored completely (never the reader of the in-flight body); an origin answer relayed
   directly is one fetched by that client's own request; an error is handed out only after a
   shared fetch failed. *)
Theorem C05_everyone_answered_provenance : forall ks tr s,
  run (init ks) tr = Some s ->
  forall c r, ph s c = Done r ->
    match r with
    | RStored v => In v (stored s)
    | RPrivate k n => In (FollowerFallback c k) tr /\ 1 <= n <= origin_count s
    | RError => 0 < faults s
    end.
Proof. exact answer_provenance. Qed.
Print Assumptions C05_everyone_answered_provenance.

(* Everyone is answered (3): completely.  When the origin completes every body it starts and the
   entry is not removed under a pending revalidation (no eviction at all, or no 304 at all),
   every answer anybody receives is complete: the stored version or an origin answer of the
   client's own - whoever disconnected, whenever. *)
Theorem C05_everyone_answered : forall ks tr s,
  run (init ks) tr = Some s -> fault_free tr = true ->
  forall c r, ph s c = Done r -> complete r = true.
Proof.
  intros ks tr s Hrun Hff. apply andb_true_iff in Hff as [Hna _]. exact (answers_complete_no_abort ks tr s Hrun Hna).
Qed.
Print Assumptions C05_everyone_answered.

(* A client that disconnects never changes what the others receive: delete the disconnects of
   any set D of clients from any executable trace - the rest is still executable, and every
   client outside D, the cache and the origin's counters end exactly as before. *)
Theorem C05_bystander_independence : forall (D : client -> bool) ks tr s,
  run (init ks) tr = Some s ->
  exists s', run (init ks) (without_disconnects D tr) = Some s' /\
    (forall c, D c = false -> ph s' c = ph s c) /\
    cache s' = cache s /\ origin_count s' = origin_count s /\ cond_count s' = cond_count s.
Proof. exact bystander_independence. Qed.
Print Assumptions C05_bystander_independence.

(* Not cacheable: private copies.  In every trace no origin answer is delivered to two clients;
   a relayed answer is neither a stored version nor anybody else's, and was fetched by that
   client's own request.  And when nothing the origin says is cacheable (key not fresh), every
   answered client holds such a copy of its own. *)
Theorem C05_uncacheable_private_copies : forall ks tr s,
  run (init ks) tr = Some s ->
  (forall c1 c2 k1 k2 n1 n2,
      ph s c1 = Done (RPrivate k1 n1) -> ph s c2 = Done (RPrivate k2 n2) -> c1 <> c2 -> n1 <> n2) /\
  (forall c k n, ph s c = Done (RPrivate k n) ->
      1 <= n <= origin_count s /\ ~ In n (stored s) /\ In (FollowerFallback c k) tr) /\
  (ks <> Fresh -> forallb uncacheable_ok tr = true ->
   forall c r, ph s c = Done r -> exists k n, r = RPrivate k n /\ kind_uncacheable k = true).
Proof. exact private_copies. Qed.
Print Assumptions C05_uncacheable_private_copies.

(* Concrete interleavings that meet the hypotheses of the theorems above. *)

Definition outcome (ks : key_state) (tr : list action) (cl : list client) :=
  match run (init ks) tr with
  | Some s => Some (map (ph s) cl, origin_count s, cond_count s, cache s)
  | None => None
  end.

(* three clients overlap on a cold key; the leader disconnects while the origin is gated *)
Definition tr_cold3 : list action :=
  [Arrive 0; LeaderLookup; Arrive 1; Arrive 2; Disconnect 0; OriginAnswer KCacheable; LeaderStore;
   FlightReturn; FollowerReGet 1; FollowerReGet 2; Respond 2; Respond 1].

Example ex_single_fetch_hyp : forallb (single_fetch_ok Cold) tr_cold3 = true.
Proof. vm_compute. reflexivity. Qed.

Example ex_single_fetch :
  outcome Cold tr_cold3 [0; 1; 2] =
  Some ([Gone; Done (RStored 1); Done (RStored 1)], 1, 0, Some (1, true)).
Proof. vm_compute. reflexivity. Qed.

Example ex_bystander :
  outcome Cold (without_disconnects (fun c => c =? 0) tr_cold3) [1; 2] =
  Some ([Done (RStored 1); Done (RStored 1)], 1, 0, Some (1, true)).
Proof. vm_compute. reflexivity. Qed.

(* stale key, 304: one conditional request, the old version for everybody *)
Example ex_revalidation :
  outcome Stale
    [Arrive 5; Arrive 6; LeaderLookup; OriginAnswer KNotModified; Arrive 7; LeaderStore; FlightReturn;
     FollowerReGet 5; FollowerReGet 6; FollowerReGet 7; Respond 5; Respond 6; Respond 7] [5; 6; 7] =
  Some ([Done (RStored 0); Done (RStored 0); Done (RStored 0)], 1, 1, Some (0, true)).
Proof. vm_compute. reflexivity. Qed.

(* no-store: the shared answer is dropped, three clients, three further origin answers *)
Definition tr_nostore3 : list action :=
  [Arrive 0; LeaderLookup; Arrive 1; Arrive 2; OriginAnswer KNoStore; LeaderStore; FlightReturn;
   FollowerFallback 2 KNoStore; FollowerFallback 0 KNotFound; FollowerFallback 1 KNoStore;
   Respond 0; Respond 1; Respond 2].

Example ex_private_hyp : forallb uncacheable_ok tr_nostore3 = true.
Proof. vm_compute. reflexivity. Qed.

Example ex_private :
  outcome Cold tr_nostore3 [0; 1; 2] =
  Some ([Done (RPrivate KNotFound 3); Done (RPrivate KNoStore 4); Done (RPrivate KNoStore 2)], 4, 0, None).
Proof. vm_compute. reflexivity. Qed.

(* the entry vanishes at the yield point after Do returned: own fetches, still complete *)
Definition tr_evict : list action :=
  [Arrive 0; LeaderLookup; Arrive 1; OriginAnswer KCacheable; LeaderStore; FlightReturn; Evict;
   FollowerReGet 1; FollowerReGet 0; FollowerFallback 0 KCacheable; FollowerFallback 1 KNoStore;
   Respond 0; Respond 1].

Example ex_evict_hyp : fault_free tr_evict = true.
Proof. vm_compute. reflexivity. Qed.

Example ex_evict :
  outcome Cold tr_evict [0; 1] =
  Some ([Done (RPrivate KCacheable 2); Done (RPrivate KNoStore 3)], 3, 0, None).
Proof. vm_compute. reflexivity. Qed.

(* entry removed under a pending revalidation: since the repair of C09 (a cache-side failure
   takes the ErrNotCacheable route) the callers fetch for themselves instead of getting 502 *)
Example ex_evicted_under_revalidation :
  outcome Stale
    [Arrive 0; LeaderLookup; Arrive 1; Evict; OriginAnswer KNotModified; LeaderStore; FlightReturn;
     FollowerFallback 0 KCacheable; FollowerFallback 1 KCacheable; Respond 0; Respond 1] [0; 1] =
  Some ([Done (RPrivate KCacheable 2); Done (RPrivate KCacheable 3)], 3, 1, None).
Proof. vm_compute. reflexivity. Qed.

(* the hypothesis of C05_everyone_answered is needed: a body cut by the origin is relayed as it is *)
Example ex_fault_needed :
  outcome Cold
    [Arrive 0; LeaderLookup; OriginAnswer KAbortBody; LeaderStore; FlightReturn;
     FollowerFallback 0 KAbortBody; Respond 0] [0] =
  Some ([Done (RPrivate KAbortBody 2)], 2, 0, None).
Proof. vm_compute. reflexivity. Qed.

(* progress is not vacuous: a follower parked in Do behind a disconnected leader *)
Example ex_progress_state :
  outcome Cold [Arrive 0; LeaderLookup; Arrive 1; Disconnect 0] [0; 1] =
  Some ([Gone; InFlight], 1, 0, None).
Proof. vm_compute. reflexivity. Qed.
