(* C17 — Saved config reads back identically; CLI overrides win but are not saved.
   This file contains only statements; the proof of every theorem is [exact <lemma>]. *)
From Reservoir Require Import Base.Prelude Model.ByteSize Proofs.ByteSize Model.ConfigProp Proofs.ConfigProp Model.Flags Proofs.Flags.
From Coq Require Import String.

(* Every size prints in a form that parses back to the identical value
   (all byte counts, not only unit multiples). *)
Theorem C17_bs_roundtrip : forall n, 0 <= n < 2^63 -> bs_parse (bs_string n) = Ok n.
Proof. exact bs_roundtrip_lemma. Qed.
Print Assumptions C17_bs_roundtrip.

(* A size string is accepted only in the digits-plus-unit form and means digits times unit. *)
Theorem C17_bs_parse_sound : forall s n,
  bs_parse s = Ok n ->
  exists ds c u, s = ds ++ [c] /\ ds <> [] /\ all_digits ds = true /\ unit_of c = Some u /\
                 n = dec_value ds * u /\ 0 <= n < 2^63.
Proof. exact bs_parse_sound_lemma. Qed.
Print Assumptions C17_bs_parse_sound.

(* ... and every such string whose value fits an int64 is accepted with that meaning. *)
Theorem C17_bs_parse_complete : forall ds c u,
  ds <> [] -> all_digits ds = true -> unit_of c = Some u -> dec_value ds * u <= max_int64 ->
  bs_parse (ds ++ [c]) = Ok (dec_value ds * u).
Proof. exact bs_parse_complete. Qed.
Print Assumptions C17_bs_parse_complete.

(* The printed form is itself in the documented shape and means the value. *)
Theorem C17_bs_string_shape : forall n, 0 <= n < 2^63 ->
  exists ds c u, bs_string n = ds ++ [c] /\ ds <> [] /\ all_digits ds = true /\
                 unit_of c = Some u /\ dec_value ds * u = n.
Proof. exact bs_string_shape. Qed.
Print Assumptions C17_bs_string_shape.

(* Histories of one property.  For EVERY sequence of command-line overrides
   and accepted API updates: the running process reads the last override if
   there was one, else the last update (else the initial value); the value
   written to the file is the last update (else the initial value), never an
   override; nothing stays staged. *)
Theorem C17_override_wins_not_saved : forall (T : Type) (v0 : T) (ops : list (cop T)),
  let p := crun (cp_new v0) ops in
  cp_read p = ref_read ops v0 /\ cp_marshal p = ref_base ops v0 /\ c_staged p = None.
Proof. exact @override_wins_not_saved_lemma. Qed.
Print Assumptions C17_override_wins_not_saved.

(* "also after later API updates": once given, an override is what the process reads
   after any number of further updates. *)
Theorem C17_override_survives_updates : forall (T : Type) (v0 o : T) (ops1 ops2 : list (cop T)),
  (forall v, ~ In (COverride v) ops2) ->
  cp_read (crun (cp_new v0) (ops1 ++ COverride o :: ops2)) = o.
Proof. exact @override_survives_updates. Qed.
Print Assumptions C17_override_survives_updates.

(* After every history, whatever operation comes next tells the listeners
   exactly the value Read returns after it (the override-aware value). *)
Theorem C17_told_is_read : forall (T : Type) (v0 : T) (ops : list (cop T)) (op : cop T),
  let p := crun (cp_new v0) ops in
  snd (cstep p op) = [cp_read (fst (cstep p op))].
Proof. exact @told_is_read_lemma. Qed.
Print Assumptions C17_told_is_read.

(* The same for every interleaving of the fine-grained API calls
   Overwrite / Stage / CommitStaged in which no Overwrite arrives while a value is staged. *)
Theorem C17_fine_refines : forall (T : Type) (v0 : T) (ops : list (fop T)),
  fwf false ops = true ->
  let p := fst (frun (cp_new v0) ops) in
  let r := fold_left fref_step ops {| fr_base := v0; fr_over := None; fr_staged := None |} in
  cp_read p = (match fr_over r with Some o => o | None => fr_base r end) /\
  cp_marshal p = (match fr_staged r with Some v => v | None => fr_base r end).
Proof. exact @fine_refines_lemma. Qed.
Print Assumptions C17_fine_refines.

(* Save then load.  For every configuration (any number of properties of any
   kinds, any overrides in force) whose base values are valid, loading the
   saved file succeeds and the new process reads exactly the saved base
   values; the library codecs (JSON scalars, Duration, slog.Level) enter only
   through their round-trip law. *)
Theorem C17_cfg_roundtrip :
  forall (lib_enc : fkind -> fval -> str) (lib_dec : fkind -> str -> res fval)
         (verify : list (fkind * fval) -> bool) (lib_valid : fkind -> fval -> Prop),
  (forall k v, k <> KSize -> lib_valid k v -> lib_dec k (lib_enc k v) = Ok v) ->
  forall c : config,
  Forall (field_valid lib_valid) (bases c) -> verify (bases c) = true ->
  exists c', load lib_dec verify (persist lib_enc c) = Ok c' /\
             effective c' = bases c /\ bases c' = bases c.
Proof. exact cfg_roundtrip_lemma. Qed.
Print Assumptions C17_cfg_roundtrip.

(* ... and with no override in force (and no update in flight), exactly the same effective settings. *)
Theorem C17_cfg_roundtrip_same :
  forall (lib_enc : fkind -> fval -> str) (lib_dec : fkind -> str -> res fval)
         (verify : list (fkind * fval) -> bool) (lib_valid : fkind -> fval -> Prop),
  (forall k v, k <> KSize -> lib_valid k v -> lib_dec k (lib_enc k v) = Ok v) ->
  forall c : config,
  Forall (field_valid lib_valid) (bases c) -> verify (bases c) = true ->
  (forall kp, In kp c -> o_over (c_committed (snd kp)) = None /\ c_staged (snd kp) = None) ->
  exists c', load lib_dec verify (persist lib_enc c) = Ok c' /\ effective c' = effective c.
Proof. exact cfg_roundtrip_same. Qed.
Print Assumptions C17_cfg_roundtrip_same.

(* The whole configuration under the command line.  [flag_table] (Model/Flags.v) is the documented table: which
   setting each flag addresses and how its text is read.  For EVERY configuration, every history of flags and
   accepted API updates of any settings: each setting is read as its own history says — the last flag that
   addresses it if there was one, else the last update, else the initial value — and saved as the last update,
   else the initial value. *)
Theorem C17_whole_config_history : forall vals ops c',
  wrun (fresh vals) ops = Ok c' ->
  eff_of c' = map (fun kv => (fst kv, ref_read (proj (fst kv) ops) (snd kv))) vals /\
  saved_of c' = map (fun kv => (fst kv, ref_base (proj (fst kv) ops) (snd kv))) vals.
Proof. exact whole_config_history. Qed.
Print Assumptions C17_whole_config_history.

(* Command-line values are never written into the file: what is saved is what the API updates alone produce. *)
Theorem C17_saved_independent_of_flags : forall vals ops c1,
  wrun (fresh vals) ops = Ok c1 ->
  exists c2, wrun (fresh vals) (updates_only ops) = Ok c2 /\ saved_of c1 = saved_of c2.
Proof. exact saved_independent_of_flags. Qed.
Print Assumptions C17_saved_independent_of_flags.

(* A flag wins for the running process, whatever API updates (of its own or any other setting) and flags for
   other settings come before or after it. *)
Theorem C17_flag_wins : forall vals ops1 name raw ops2 path v c',
  wrun (fresh vals) (ops1 ++ WFlag name raw :: ops2) = Ok c' ->
  flag_target name raw = Ok (path, v) ->
  (forall n r w, In (WFlag n r) ops2 -> flag_target n r <> Ok (path, w)) ->
  forall kv, In kv (eff_of c') -> fst kv = path -> snd kv = v.
Proof. exact flag_wins. Qed.
Print Assumptions C17_flag_wins.

(* A flag changes the one setting it addresses and no other, and nothing that is saved. *)
Theorem C17_flag_only_target : forall c name raw path v c',
  wstep c (WFlag name raw) = Ok c' -> flag_target name raw = Ok (path, v) ->
  eff_of c' = map (fun kv => if String.eqb (fst kv) path then (fst kv, v) else kv) (eff_of c) /\
  saved_of c' = saved_of c.
Proof. exact flag_only_target. Qed.
Print Assumptions C17_flag_only_target.

(* No flag twice in the table, no setting addressed by two flags. *)
Theorem C17_flag_table_injective :
  NoDup (map fst flag_table) /\ NoDup (map (fun e => fst (snd e)) flag_table).
Proof. exact flag_table_injective. Qed.
Print Assumptions C17_flag_table_injective.

Example ex_1536 : bs_string 1536 = [49;53;51;54;66] /\ bs_parse (bs_string 1536) = Ok 1536.
Proof. vm_compute. split; reflexivity. Qed.
Example ex_10G : bs_string (10 * 2^30) = [49;48;71].
Proof. vm_compute. reflexivity. Qed.
Example ex_10K5 : bs_parse [49;48;75;53] = Err.
Proof. vm_compute. reflexivity. Qed.
Example ex_max : bs_parse (bs_string (2^63 - 1)) = Ok (2^63 - 1).
Proof. vm_compute. reflexivity. Qed.

(* a history: default 10G, --flag 1536, API update to 3K, API update to 5000 *)
Example ex_history :
  let p := crun (cp_new (10 * 2^30)) [COverride 1536; CUpdate 3072; CUpdate 5000] in
  cp_read p = 1536 /\ cp_marshal p = 5000 /\ bs_string (cp_marshal p) = [53;48;48;48;66].
Proof. vm_compute. repeat split; reflexivity. Qed.
Example ex_told : snd (cstep (crun (cp_new 0) [COverride 7]) (CUpdate 9)) = [7].
Proof. vm_compute. reflexivity. Qed.
(* a two-property configuration with an override in force round-trips to its bases *)
Example ex_cfg :
  let c := [(KSize, crun (cp_new (VZ 1536)) [COverride (VZ 1)]); (KSize, cp_new (VZ (2^40)))] in
  load (fun _ _ => Err) (fun _ => true) (persist (fun _ _ => []) c)
  = Ok [(KSize, cp_new (VZ 1536)); (KSize, cp_new (VZ (2^40)))].
Proof. vm_compute. reflexivity. Qed.
(* file says ssl/old.key and 10 backups; --ca-key=k, then the API sets ca_key to "n" and backups to 4, then --log-file-max-backups=+7 *)
Example ex_flags :
  let vals := [("proxy.ca_cert"%string, VS [99]); ("proxy.ca_key"%string, VS [111]); ("logging.max_backups"%string, VZ 10)] in
  match wrun (fresh vals) [WFlag "ca-key" [107]; WUpdate "proxy.ca_key" (VS [110]); WUpdate "logging.max_backups" (VZ 4);
                           WFlag "log-file-max-backups" [43;55]] with
  | Ok c => eff_of c = [("proxy.ca_cert"%string, VS [99]); ("proxy.ca_key"%string, VS [107]); ("logging.max_backups"%string, VZ 7)] /\
            saved_of c = [("proxy.ca_cert"%string, VS [99]); ("proxy.ca_key"%string, VS [110]); ("logging.max_backups"%string, VZ 4)]
  | _ => False
  end.
Proof. vm_compute. split; reflexivity. Qed.
Example ex_flag_text : conv FCBool [84] = Ok (VB true) /\ conv FCSize [53;48;48;77] = Ok (VZ (500 * 2^20)) /\
                       conv FCLevel [119;97;114;110] = Ok (VZ 4) /\ conv FCInt [45;50] = Ok (VZ (-2)) /\ conv FCBool [121] = Err.
Proof. vm_compute. repeat split; reflexivity. Qed.
