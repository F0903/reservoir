(* C02 — Distinct resources never share a cache entry.
   Statements only; the proof of every theorem is [exact <lemma>] or a line or two from a more general lemma
   of Proofs/Key.v.
   The theorems are about the pre-hash key string of cache.MakeFromRequest
   (BLAKE2b-256 collision-freedom is an assumption, see props/C02.py). *)
From Reservoir Require Import Base.Prelude Model.Key Proofs.Key.

(* The property: inside the statement's domain (ASCII host; path empty, "*" or rooted, which is
   what net/http delivers) two requests with the same scheme component get the same key string
   iff they name the same resource: same method, same host up to ASCII letter case, same path
   up to dot-segments and duplicate slashes (trailing slash significant), same raw query. *)
Theorem C02_key_iff_same_resource : forall a b : request,
  wire_req a -> wire_req b -> r_tls a = r_tls b ->
  (key_string a = key_string b <-> same_resource a b).
Proof. exact key_iff_same_resource. Qed.
Print Assumptions C02_key_iff_same_resource.

(* Separation needs no hypothesis on the scheme: distinct resources never share. *)
Theorem C02_distinct_never_share : forall a b : request,
  wire_req a -> wire_req b -> ~ same_resource a b -> key_string a <> key_string b.
Proof. intros a b [_ Ha] [_ Hb] Hn H. apply (key_string_eq_iff a b Ha Hb) in H as [_ H]. exact (Hn H). Qed.
Print Assumptions C02_distinct_never_share.

(* The length-prefixed join is injective for ARBITRARY byte strings in every component
   (separators, digits, colons, NUL, anything): no characters can move across a boundary. *)
Theorem C02_key_injective_components : forall t1 m1 h1 p1 q1 t2 m2 h2 p2 q2,
  encode t1 m1 h1 p1 q1 = encode t2 m2 h2 p2 q2 ->
  t1 = t2 /\ m1 = m2 /\ h1 = h2 /\ p1 = p2 /\ q1 = q2.
Proof. exact encode_inj. Qed.
Print Assumptions C02_key_injective_components.

(* path.Clean (as modelled by clean_go) plus reservoir's trailing-slash rule computes exactly the
   reference normal form of every rooted path. *)
Theorem C02_clean_go_is_norm : forall p : str, rooted p = true -> key_path p = norm_path p.
Proof. exact clean_go_is_norm. Qed.
Print Assumptions C02_clean_go_is_norm.

(* "characters moved across the path/query (or any other component) boundary never share" *)
Theorem C02_component_shift_never_shares : forall a b : request,
  wire_path (r_path a) -> wire_path (r_path b) ->
  key_string a = key_string b ->
  r_method a = r_method b /\ r_query a = r_query b /\ norm_path (r_path a) = norm_path (r_path b).
Proof.
  intros a b Ha Hb H. apply (key_string_eq_iff a b Ha Hb) in H as [_ (Hm & _ & Hp & Hq)]. auto.
Qed.
Print Assumptions C02_component_shift_never_shares.

(* "a trailing slash distinguishes": for every path of slash-free segments ending in a real one *)
Theorem C02_trailing_slash_never_shares : forall (r : request) (xs : list str) (s : str),
  normal_seg s -> noslash s -> Forall noslash xs ->
  key_string (set_path r (path_of (xs ++ [s; []]))) <> key_string (set_path r (path_of (xs ++ [s]))).
Proof.
  intros r xs s Hs Hn Hf H. apply set_path_key_iff in H; auto using wire_path_of.
  revert H. apply norm_path_trailing_slash; assumption.
Qed.
Print Assumptions C02_trailing_slash_never_shares.

(* "host letter case does share" *)
Theorem C02_host_case_shares : forall (r : request) (h' : str),
  lower_str h' = lower_str (r_host r) -> key_string (set_host r h') = key_string r.
Proof. exact host_case_shares. Qed.
Print Assumptions C02_host_case_shares.

Theorem C02_host_upper_shares : forall r : request,
  key_string (set_host r (map to_upper (r_host r))) = key_string r.
Proof. intros r. apply host_case_shares, lower_upper_str. Qed.
Print Assumptions C02_host_upper_shares.

(* "dot-segments do share": a "." or empty segment, or "seg/..", before the last segment *)
Theorem C02_dot_segment_shares : forall (r : request) (xs ys : list str) (s : str),
  s = [] \/ s = [DOT] -> ys <> [] -> Forall noslash (xs ++ ys) ->
  key_string (set_path r (path_of (xs ++ s :: ys))) = key_string (set_path r (path_of (xs ++ ys))).
Proof. exact dot_segment_shares. Qed.
Print Assumptions C02_dot_segment_shares.

Theorem C02_dotdot_segment_shares : forall (r : request) (xs ys : list str) (s : str),
  normal_seg s -> noslash s -> ys <> [] -> Forall noslash (xs ++ ys) ->
  key_string (set_path r (path_of (xs ++ s :: [DOT; DOT] :: ys))) =
  key_string (set_path r (path_of (xs ++ ys))).
Proof. exact dotdot_segment_shares. Qed.
Print Assumptions C02_dotdot_segment_shares.

(* Non-vacuity and the two repaired witnesses. GET example.com *)
Definition rq (h p q : str) : request :=
  {| r_tls := false; r_method := [71;69;84]; r_host := h; r_path := p; r_query := q |}.
Definition ex_host : str := [101;120;97;109;112;108;101;46;99;111;109].
Definition EX_HOST : str := [69;88;65;77;80;76;69;46;67;79;77].
(* /a|b ? c   vs   /a ? b|c *)
Example ex_pipe : key_string (rq ex_host [47;97;124;98] [99]) <> key_string (rq ex_host [47;97] [98;124;99]).
Proof. vm_compute. discriminate. Qed.
(* /dir/ vs /dir *)
Example ex_trailing : key_string (rq ex_host [47;100;105;114;47] []) <> key_string (rq ex_host [47;100;105;114] []).
Proof. vm_compute. discriminate. Qed.
(* EXAMPLE.COM/a/./b/../c//d  and  example.com/a/c/d *)
Example ex_share :
  key_string (rq EX_HOST [47;97;47;46;47;98;47;46;46;47;99;47;47;100] [120;61;49]) =
  key_string (rq ex_host [47;97;47;99;47;100] [120;61;49]).
Proof. vm_compute. reflexivity. Qed.
Example ex_wire : wire_req (rq ex_host [47;97;124;98] [99]).
Proof. split; [repeat constructor; lia | right; right; reflexivity]. Qed.
Example ex_key : key_string (rq ex_host [47;97;47] [99]) =
  (* http|3:GET|11:example.com|3:/a/|1:c *)
  [104;116;116;112;124;51;58;71;69;84;124;49;49;58;101;120;97;109;112;108;101;46;99;111;109;124;51;58;47;97;47;124;49;58;99].
Proof. vm_compute. reflexivity. Qed.
