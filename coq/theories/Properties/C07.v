(* C07 — Range answers are exact slices or explicit refusals.
   This file contains only statements; the proof of every theorem is [exact <lemma>] or a line or two from a
   more general lemma of Proofs/Range.v. *)
From Reservoir Require Import Base.Prelude Model.Range Proofs.Range.

(* No Range header string makes the parser index out of bounds (no dropped connection). *)
Theorem C07_parse_total : forall s : str, parse_range s <> Panic.
Proof. exact parse_range_no_panic. Qed.
Print Assumptions C07_parse_total.

(* ... nor the request handling built on it, for every If-Range form, stored entry and retry setting. *)
Theorem C07_answer_total : forall retry hdr ir st, serve_range retry hdr ir st <> APanic.
Proof. exact serve_range_no_panic. Qed.
Print Assumptions C07_answer_total.

(* A 206 lies inside the stored representation and announces the slice length. *)
Theorem C07_partial_inside : forall retry rng ir st a b len,
  range_answer retry rng ir st = Partial a b len ->
  0 <= a /\ a <= b /\ b < st_size st /\ len = b - a + 1.
Proof.
  intros retry rng ir st a b len H. apply range_answer_partial in H as (r & _ & S & _ & L).
  apply slice_size_inside in S as (Ha & Hab & Hb). auto.
Qed.
Print Assumptions C07_partial_inside.

(* ... and carries exactly those bytes of the stored body. *)
Theorem C07_section_length : forall body a len,
  0 <= a -> 0 <= len -> a + len <= zlen body -> zlen (section body a len) = len.
Proof. exact section_length. Qed.
Print Assumptions C07_section_length.

Theorem C07_section_bytes : forall body a len i d,
  0 <= a -> (i < Z.to_nat len)%nat ->
  nth i (section body a len) d = nth (Z.to_nat a + i) body d.
Proof. exact section_nth. Qed.
Print Assumptions C07_section_bytes.

(* A well-formed single byte range (RFC 9110 grammar, digit strings of any
   length, values unbounded) is either served as exactly that range or not
   served as a 206 at all: never a different slice. *)
Theorem C07_wellformed_exact : forall retry hdr ir st sp a b len,
  0 <= st_size st <= max_int64 ->
  wellformed_spec hdr = Some sp ->
  serve_range retry hdr ir st = Partial a b len ->
  (a, b) = spec_slice sp (st_size st).
Proof. exact wellformed_exact. Qed.
Print Assumptions C07_wellformed_exact.

(* ... and it is served whenever it lies inside the representation. *)
Theorem C07_wellformed_inside_served : forall retry hdr st sp,
  0 <= st_size st <= max_int64 ->
  wellformed_spec hdr = Some sp ->
  let '(a, b) := spec_slice sp (st_size st) in
  0 <= a -> a <= b -> b < st_size st ->
  match sp with
  | SSuffix n => 0 <= n <= max_int64
  | SFrom x => x <= max_int64
  | SFromTo x y => x <= max_int64 /\ y <= max_int64
  end ->
  serve_range retry hdr IRNone st = Partial a b (b - a + 1).
Proof. exact wellformed_inside_served. Qed.
Print Assumptions C07_wellformed_inside_served.

(* Everything else is a 416 stating the representation size, or the full 200. *)
Theorem C07_refusals : forall retry rng ir st,
  match range_answer retry rng ir st with
  | Partial _ _ _ => True
  | Refuse416 sz => sz = st_size st /\ retry = false
  | Full s => s = 200
  | APanic => False
  end.
Proof. exact range_answer_outcomes. Qed.
Print Assumptions C07_refusals.

(* An If-Range that differs from the stored validator never yields a 206. *)
Theorem C07_if_range_tag_mismatch : forall retry rng st t,
  t <> st_etag st -> range_answer retry (Some rng) (IRTag t) st <> Full 200 ->
  exists sz, range_answer retry (Some rng) (IRTag t) st = Refuse416 sz.
Proof. intros retry rng st t H. apply if_range_mismatch, negb_true_iff, str_eqb_neq, H. Qed.
Print Assumptions C07_if_range_tag_mismatch.

(* a date validator matches only the stored Last-Modified itself: an older AND a later date get the full 200 *)
Theorem C07_if_range_time_mismatch : forall retry rng st t,
  t <> st_lastmod st -> range_answer retry (Some rng) (IRTime t) st <> Full 200 ->
  exists sz, range_answer retry (Some rng) (IRTime t) st = Refuse416 sz.
Proof. intros retry rng st t H. apply if_range_mismatch, negb_true_iff, Z.eqb_neq, H. Qed.
Print Assumptions C07_if_range_time_mismatch.

(* Non-vacuity: bytes=0-499 on 1000 bytes; suffix; open-ended; sizes 0 and 1;
   an overflowing number. *)
Definition st1000 := {| st_size := 1000; st_etag := [34;97;34]; st_lastmod := 0 |}.
Definition b (s : list Z) := [98;121;116;101;115;61] ++ s.
Example ex_simple : serve_range false (b [48;45;52;57;57]) IRNone st1000 = Partial 0 499 500.
Proof. vm_compute. reflexivity. Qed.
Example ex_suffix : serve_range false (b [45;53;48;48]) IRNone st1000 = Partial 500 999 500.
Proof. vm_compute. reflexivity. Qed.
Example ex_open : serve_range false (b [53;48;48;45]) IRNone st1000 = Partial 500 999 500.
Proof. vm_compute. reflexivity. Qed.
Example ex_size0 : serve_range false (b [48;45;48]) IRNone {| st_size := 0; st_etag := []; st_lastmod := 0 |} = Refuse416 0.
Proof. vm_compute. reflexivity. Qed.
Example ex_size1 : serve_range true (b [45;49]) IRNone {| st_size := 1; st_etag := []; st_lastmod := 0 |} = Partial 0 0 1.
Proof. vm_compute. reflexivity. Qed.
(* 18446744073709551617-18446744073709551618 *)
Example ex_overflow :
  serve_range false (b [49;56;52;52;54;55;52;52;48;55;51;55;48;57;53;53;49;54;49;55;45;49;56;52;52;54;55;52;52;48;55;51;55;48;57;53;53;49;54;49;56]) IRNone st1000 = Full 200.
Proof. vm_compute. reflexivity. Qed.
Example ex_wf : wellformed_spec (b [48;45;52;57;57]) = Some (SFromTo 0 499).
Proof. vm_compute. reflexivity. Qed.
