(* C04 — Exactly the storable responses are stored.
   This file contains only statements; the proof of every theorem is [exact <lemma>].

   Vocabulary: Model/Freshness.v is the executable model of the decision code
   (parseCacheControl, ParseHeaderDirective, ShouldCache, GetExpiresOrDefault,
   shouldResponseBeCached), Model/FreshHistory.v the per-resource request-history
   model built on it, Model/FreshnessSpec.v the reference predicates written from the
   property statement: [may_store] = "a 200 answer to a GET that the origin did not
   mark no-store, no-cache, private, max-age=0 or already expired, unless the operator
   ignores the marks"; [must_store] = "a 200 GET response that carries a positive
   max-age (and no mark), or no Cache-Control and no past Expires; every 200 GET
   response with directives ignored". *)
From Reservoir Require Import Base.Prelude Base.Strings Model.Freshness Model.FreshnessSpec
  Model.FreshHistory Proofs.Freshness Proofs.FreshHistory.

(* Decision, only-if: for EVERY header byte string (any case, any number of lines, any
   junk), method, status and policy, what the proxy decides to store is allowed. *)
Theorem C04_decision_only_if : forall pol m status hv now,
  zero_time < now ->
  storable pol m status hv now = true -> may_store pol m status hv now = true.
Proof. exact storable_only_if. Qed.
Print Assumptions C04_decision_only_if.

(* Decision, converse. *)
Theorem C04_decision_converse : forall pol m status hv now,
  must_store pol m status hv now = true -> storable pol m status hv now = true.
Proof. exact storable_converse. Qed.
Print Assumptions C04_decision_converse.

(* The number parseCacheControl accepts after "max-age=" is exactly [+-]?DIGIT+ of any
   length, saturated to int64 (no wrap-around, nothing else accepted). *)
Theorem C04_max_age_number : forall s,
  max_age_number s = option_map clamp64 (signed_decimal s).
Proof. exact max_age_number_spec. Qed.
Print Assumptions C04_max_age_number.

(* History, only-if: in every request history (any mix of methods, origin answers, clock
   advances, policy switches), a response that did not reach the origin is the body of an
   earlier 200 answer to a GET that was fetched from the origin and was allowed to be
   stored under the policy of that moment.  Contrapositive: every request that cannot be
   answered this way reaches the origin. *)
Theorem C04_only_storable : forall pol0 now0 h evs1 ev evs2,
  events (init_state pol0 now0) h = evs1 ++ ev :: evs2 ->
  r_contacted (ev_resp ev) = false ->
  exists ev0,
    In ev0 evs1 /\ ev_meth ev0 = GET /\ oa_status (ev_oa ev0) = 200 /\ r_contacted (ev_resp ev0) = true /\
    ev_meth ev = GET /\ r_status (ev_resp ev) = 200 /\ r_version (ev_resp ev) = oa_version (ev_oa ev0) /\
    (zero_time < ev_now ev0 -> may_store (ev_pol ev0) GET 200 (oa_hv (ev_oa ev0)) (ev_now ev0) = true) /\
    ((zero_time < ev_now ev0 ->
      force_default (ev_pol ev0) = true \/ ascii_header (oa_hv (ev_oa ev0)) = true ->
      ev_now ev - ev_now ev0 <= lifetime_upper (ev_pol ev0) (oa_hv (ev_oa ev0)) (ev_now ev0))
     \/ exists ev1, In ev1 evs1 /\ ev_meth ev1 = GET /\ r_contacted (ev_resp ev1) = true /\
                    r_version (ev_resp ev1) = r_version (ev_resp ev) /\
                    ev_now ev - ev_now ev1 <= default_age (ev_pol ev1)).
Proof. exact hist_reuse_spec. Qed.
Print Assumptions C04_only_storable.

(* History, converse: from any state in which the origin's answer actually arrives (no
   entry, or a stale one that the origin does not confirm with 304), a must-store answer
   is stored, and every later GET is answered from the store with that body - whatever
   else happens in between (other methods, policy switches, time passing) - for as long
   as the clock has not passed the entry's expiry ... *)
Theorem C04_converse : forall s oa r304 s' oev,
  answer_arrives s r304 ->
  must_store (hs_pol s) GET (oa_status oa) (oa_hv oa) (hs_now s) = true ->
  step s (Request GET oa r304) = (s', oev) ->
  exists ev, oev = Some ev /\
    r_contacted (ev_resp ev) = true /\ r_status (ev_resp ev) = 200 /\
    r_version (ev_resp ev) = oa_version oa /\ ev_effect ev = EStored /\
    forall cont, Forall forward cont ->
      hs_now s + total_advance cont <= store_expiry (hs_pol s) (oa_hv oa) (hs_now s) ->
      Forall (is_hit_of (oa_version oa)) (events s' cont).
Proof. exact hist_converse. Qed.
Print Assumptions C04_converse.

(* ... in particular for every continuation that stays strictly inside the lifetime the
   property prescribes. *)
Theorem C04_converse_lifetime : forall s oa r304 s' oev cont,
  answer_arrives s r304 ->
  must_store (hs_pol s) GET (oa_status oa) (oa_hv oa) (hs_now s) = true ->
  step s (Request GET oa r304) = (s', oev) ->
  force_default (hs_pol s) = true \/ ascii_header (oa_hv oa) = true ->
  Forall forward cont ->
  total_advance cont < lifetime_lower (hs_pol s) (oa_hv oa) (hs_now s) ->
  Forall (is_hit_of (oa_version oa)) (events s' cont).
Proof. exact hist_converse_spec. Qed.
Print Assumptions C04_converse_lifetime.

(* ---- non-vacuity ------------------------------------------------------------------- *)
Definition honour : policy := {| ignore_cc := false; force_default := false; default_age := 3600 * second |}.
Definition ignore : policy := {| ignore_cc := true; force_default := false; default_age := 3600 * second |}.
Definition t0 : Z := 1790000000 * second.
Definition hv_of (lines : list str) : hview := {| cc_lines := lines; expires := ExpAbsent; resp_range := false |}.
(* "max-age=60" *)
Definition s_max_age_60 : str := [109;97;120;45;97;103;101;61;54;48].
(* "private, max-age=60" *)
Definition s_private_60 : str := [112;114;105;118;97;116;101;44;32] ++ s_max_age_60.
(* "No-Store" *)
Definition s_No_Store : str := [78;111;45;83;116;111;114;101].
(* "no-store, max-age=abc" *)
Definition s_nostore_abc : str := [110;111;45;115;116;111;114;101;44;32;109;97;120;45;97;103;101;61;97;98;99].
(* "max-age=9223372037" *)
Definition s_big : str := [109;97;120;45;97;103;101;61;57;50;50;51;51;55;50;48;51;55].

Example ex_must_store : must_store honour GET 200 (hv_of [s_max_age_60]) t0 = true.
Proof. vm_compute. reflexivity. Qed.
Example ex_stored : storable honour GET 200 (hv_of [s_max_age_60]) t0 = true.
Proof. vm_compute. reflexivity. Qed.
Example ex_private : storable honour GET 200 (hv_of [s_private_60]) t0 = false
                     /\ marked_uncacheable (hv_of [s_private_60]) t0 = true.
Proof. vm_compute. split; reflexivity. Qed.
Example ex_second_line : storable honour GET 200 (hv_of [s_max_age_60; s_No_Store]) t0 = false.
Proof. vm_compute. reflexivity. Qed.
Example ex_bad_age : storable honour GET 200 (hv_of [s_nostore_abc]) t0 = false.
Proof. vm_compute. reflexivity. Qed.
Example ex_ignored : storable ignore GET 200 (hv_of [s_nostore_abc]) t0 = true.
Proof. vm_compute. reflexivity. Qed.
Example ex_big : storable honour GET 200 (hv_of [s_big]) t0 = true
                 /\ store_expiry honour (hv_of [s_big]) t0 = t0 + 9223372036 * second.
Proof. vm_compute. split; reflexivity. Qed.
Example ex_post : storable ignore POST 200 (hv_of [s_max_age_60]) t0 = false.
Proof. vm_compute. reflexivity. Qed.
Example ex_404 : storable ignore GET 404 (hv_of [s_max_age_60]) t0 = false.
Proof. vm_compute. reflexivity. Qed.
Example ex_expired : storable honour GET 200 {| cc_lines := []; expires := ExpUnparseable; resp_range := false |} t0 = false.
Proof. vm_compute. reflexivity. Qed.

(* a history with a hit (so the hypothesis "not contacted" of C04_only_storable is met):
   GET (stored), 30 s, GET (hit), 40 s, GET (stale: revalidated) *)
Definition oa60 : oanswer := {| oa_status := 200; oa_hv := hv_of [s_max_age_60]; oa_version := 7; oa_age := None |}.
Definition h_demo : list hstep :=
  [Request GET oa60 true; Advance (30 * second); Request GET oa60 true; Advance (40 * second); Request GET oa60 true].
Example ex_history :
  map (fun ev => (r_contacted (ev_resp ev), r_label (ev_resp ev), r_version (ev_resp ev)))
      (events (init_state honour t0) h_demo)
  = [(true, Some HsMiss, 7); (false, Some HsHit, 7); (true, Some HsRevalidated, 7)].
Proof. vm_compute. reflexivity. Qed.
