(* Lexical vocabulary shared by header models and reference predicates:
   ASCII classes, trimming, splitting on a separator byte, joining, prefix
   cutting, signed decimal numerals.  No decision logic lives here. *)
From Reservoir Require Import Base.Prelude.

Definition is_ascii (c : Z) : bool := (0 <=? c) && (c <? 128).
Definition all_ascii (s : str) : bool := forallb is_ascii s.

(* Go's asciiSpace table: \t \n \v \f \r and blank *)
Definition is_ws (c : Z) : bool := (c =? 32) || ((9 <=? c) && (c <=? 13)).

Fixpoint drop_ws (s : str) : str :=
  match s with
  | [] => []
  | c :: r => if is_ws c then drop_ws r else s
  end.

Definition ascii_trim (s : str) : str := rev (drop_ws (rev (drop_ws s))).

(* strings.Split(s, sep) for a one-byte separator: never returns the empty list *)
Fixpoint split_on (sep : Z) (s : str) : list str :=
  match s with
  | [] => [[]]
  | c :: r =>
      if c =? sep then [] :: split_on sep r
      else match split_on sep r with
           | h :: t => (c :: h) :: t
           | [] => [[c]]
           end
  end.

(* strings.Join(parts, sep) for a one-byte separator *)
Fixpoint join_with (sep : Z) (parts : list str) : str :=
  match parts with
  | [] => []
  | [a] => a
  | a :: rest => a ++ sep :: join_with sep rest
  end.

(* strings.CutPrefix *)
Fixpoint cut_prefix (p s : str) : option str :=
  match p, s with
  | [], _ => Some s
  | x :: p', y :: s' => if x =? y then cut_prefix p' s' else None
  | _ :: _, [] => None
  end.

(* [+-]? DIGIT+ as an unbounded integer *)
Definition signed_decimal (s : str) : option Z :=
  match s with
  | [] => None
  | c :: r =>
      let neg := c =? 45 in
      let ds := if (c =? 43) || (c =? 45) then r else s in
      match ds with
      | [] => None
      | _ => if all_digits ds then Some (if neg then - dec_value ds else dec_value ds) else None
      end
  end.

Fixpoint list_max (l : list Z) (d : Z) : Z :=
  match l with [] => d | x :: r => Z.max x (list_max r d) end.
Fixpoint list_min (l : list Z) (d : Z) : Z :=
  match l with [] => d | x :: r => Z.min x (list_min r d) end.
Definition last_or (l : list Z) (d : Z) : Z := last l d.

Lemma split_on_nonempty sep s : split_on sep s <> [].
Proof.
  destruct s as [|c r]; simpl; [discriminate|].
  destruct (c =? sep); [discriminate|].
  destruct (split_on sep r); discriminate.
Qed.

Lemma split_on_app sep a b :
  split_on sep (a ++ sep :: b) = split_on sep a ++ split_on sep b.
Proof.
  induction a as [|c a IH]; simpl.
  - rewrite Z.eqb_refl. reflexivity.
  - destruct (c =? sep); [rewrite IH; reflexivity|].
    rewrite IH. destruct (split_on sep a) as [|h t] eqn:E.
    + exfalso. revert E. apply split_on_nonempty.
    + reflexivity.
Qed.

Lemma split_join sep (ls : list str) :
  ls <> [] -> split_on sep (join_with sep ls) = flat_map (split_on sep) ls.
Proof.
  induction ls as [|a rest IH]; intros H; [congruence|].
  destruct rest as [|b rest'].
  - simpl. rewrite app_nil_r. reflexivity.
  - change (join_with sep (a :: b :: rest')) with (a ++ sep :: join_with sep (b :: rest')).
    rewrite split_on_app, IH by discriminate. reflexivity.
Qed.

Lemma split_on_nosep sep s : ~ In sep s -> split_on sep s = [s].
Proof.
  induction s as [|c r IH]; intros H; [reflexivity|]. simpl in *.
  destruct (Z.eqb_spec c sep); [tauto|]. rewrite IH; tauto.
Qed.

Lemma split_on_parts sep s : Forall (fun p => ~ In sep p) (split_on sep s).
Proof.
  induction s as [|c r IH]; simpl; [repeat constructor; intros []|].
  destruct (Z.eqb_spec c sep); [constructor; [intros []|exact IH]|].
  pose proof (split_on_nonempty sep r). destruct IH as [|h t Hh Ht]; [contradiction|].
  constructor; [intros [?|?]; contradiction|exact Ht].
Qed.

Lemma join_split sep s : join_with sep (split_on sep s) = s.
Proof.
  induction s as [|c r IH]; [reflexivity|]. simpl.
  pose proof (split_on_nonempty sep r).
  destruct (split_on sep r) as [|h t]; [contradiction|].
  destruct (Z.eqb_spec c sep) as [->|_]; [|destruct t]; rewrite <- IH; reflexivity.
Qed.

Lemma split_join_nosep sep ls :
  ls <> [] -> Forall (fun p => ~ In sep p) ls -> split_on sep (join_with sep ls) = ls.
Proof.
  intros Hn Hf. rewrite split_join by exact Hn. clear Hn.
  induction Hf as [|s r Hs _ IH]; [reflexivity|]. simpl.
  rewrite split_on_nosep, IH by exact Hs. reflexivity.
Qed.

Lemma join_with_ends sep init l : exists x, sep :: join_with sep (init ++ [l]) = x ++ sep :: l.
Proof.
  induction init as [|s init [x IH]]; [exists []; reflexivity|].
  exists ((sep :: s) ++ x). rewrite <- app_assoc, <- IH. destruct init; reflexivity.
Qed.

(* [sep :: t] ends in [sep :: w] exactly when the last piece of [t] is [w] *)
Lemma last_split_on sep t w :
  ~ In sep w -> (last (split_on sep t) [] = w <-> exists x, sep :: t = x ++ sep :: w).
Proof.
  intros Hw. split.
  - intros <-. destruct (exists_last (split_on_nonempty sep t)) as (init & l & E).
    rewrite E, last_last. destruct (join_with_ends sep init l) as [x Hx].
    exists x. rewrite <- Hx, <- E, join_split. reflexivity.
  - intros [x E]. apply (f_equal (split_on sep)) in E.
    rewrite split_on_app, (split_on_nosep sep w Hw) in E. simpl in E. rewrite Z.eqb_refl in E.
    apply (f_equal (fun l => last l [])) in E. rewrite last_last in E. rewrite <- E.
    pose proof (split_on_nonempty sep t). destruct (split_on sep t); [contradiction|reflexivity].
Qed.

Lemma all_ascii_app a b : all_ascii (a ++ b) = all_ascii a && all_ascii b.
Proof. apply forallb_app. Qed.

Lemma all_ascii_rev a : all_ascii (rev a) = all_ascii a.
Proof. apply forallb_rev. Qed.

Lemma is_ws_ascii c : is_ws c = true -> is_ascii c = true.
Proof. unfold is_ws, is_ascii. lia. Qed.

Lemma all_ascii_drop_ws s : all_ascii (drop_ws s) = all_ascii s.
Proof.
  induction s as [|c r IH]; simpl; [reflexivity|].
  destruct (is_ws c) eqn:E; [|reflexivity].
  rewrite IH, (is_ws_ascii _ E). reflexivity.
Qed.

Lemma all_ascii_trim s : all_ascii (ascii_trim s) = all_ascii s.
Proof.
  unfold ascii_trim.
  rewrite all_ascii_rev, all_ascii_drop_ws, all_ascii_rev, all_ascii_drop_ws. reflexivity.
Qed.

Lemma all_ascii_lower s : all_ascii (lower_str s) = all_ascii s.
Proof.
  induction s as [|c r IH]; simpl; [reflexivity|]. rewrite IH. f_equal.
  unfold to_lower, is_upper, is_ascii.
  destruct ((65 <=? c) && (c <=? 90)) eqn:E; lia.
Qed.

Lemma all_ascii_split sep s p :
  all_ascii s = true -> In p (split_on sep s) -> all_ascii p = true.
Proof.
  revert p. induction s as [|c r IH]; simpl; intros p Hs Hp.
  - destruct Hp as [<-|[]]. reflexivity.
  - apply andb_true_iff in Hs as [Hc Hr].
    destruct (c =? sep).
    + destruct Hp as [<-|Hp]; [reflexivity|auto].
    + destruct (split_on sep r) as [|h t] eqn:E.
      * destruct Hp as [<-|[]]. simpl. rewrite Hc. reflexivity.
      * destruct Hp as [<-|Hp].
        -- simpl. rewrite Hc. apply IH; [assumption|left; reflexivity].
        -- apply IH; [assumption|right; assumption].
Qed.

Lemma all_ascii_join sep ls :
  is_ascii sep = true -> forallb all_ascii ls = true -> all_ascii (join_with sep ls) = true.
Proof.
  intros Hsep. induction ls as [|a rest IH]; intros H; [reflexivity|].
  simpl in H. apply andb_true_iff in H as [Ha Hr].
  destruct rest as [|b rest']; [exact Ha|].
  change (join_with sep (a :: b :: rest')) with (a ++ sep :: join_with sep (b :: rest')).
  rewrite all_ascii_app, Ha. simpl. rewrite Hsep. simpl. apply IH. exact Hr.
Qed.

Lemma cut_prefix_app p s r : cut_prefix p s = Some r -> s = p ++ r.
Proof.
  revert s. induction p as [|x p IH]; intros s H; simpl in *.
  - congruence.
  - destruct s as [|y s]; [discriminate|].
    destruct (x =? y) eqn:E; [|discriminate].
    apply Z.eqb_eq in E. subst. f_equal. auto.
Qed.

Lemma all_digits_ascii s : all_digits s = true -> all_ascii s = true.
Proof.
  induction s as [|c r IH]; simpl; [reflexivity|]. intros H.
  apply andb_true_iff in H as [Hc Hr]. rewrite (IH Hr), andb_true_r.
  unfold is_digit in Hc. unfold is_ascii. lia.
Qed.

Lemma signed_decimal_ascii s v : signed_decimal s = Some v -> all_ascii s = true.
Proof.
  unfold signed_decimal. destruct s as [|c r]; [discriminate|].
  destruct ((c =? 43) || (c =? 45)) eqn:Es.
  - destruct r as [|d r']; [discriminate|].
    destruct (all_digits (d :: r')) eqn:Ed; [|discriminate]. intros _.
    change (is_ascii c && all_ascii (d :: r') = true).
    rewrite (all_digits_ascii _ Ed), andb_true_r. unfold is_ascii. lia.
  - destruct (all_digits (c :: r)) eqn:Ed; [|discriminate]. intros _.
    apply all_digits_ascii. exact Ed.
Qed.

Lemma dec_acc_app a s t : dec_acc a (s ++ t) = dec_acc (dec_acc a s) t.
Proof. revert a; induction s as [|c s IH]; intros a; cbn [dec_acc app]; [reflexivity|apply IH]. Qed.

Lemma dec_value_snoc s d : dec_value (s ++ [d]) = dec_value s * 10 + (d - 48).
Proof. apply dec_acc_app. Qed.

Lemma dec_acc_mono s : forall acc, all_digits s = true -> 0 <= acc -> acc <= dec_acc acc s.
Proof.
  induction s as [|c r IH]; cbn [dec_acc all_digits forallb]; intros acc H Ha; [lia|].
  apply andb_true_iff in H as [Hc Hr]. apply is_digit_range in Hc.
  specialize (IH (acc * 10 + (c - 48)) Hr). lia.
Qed.

Lemma dec_value_nonneg s : all_digits s = true -> 0 <= dec_value s.
Proof. intros H. apply (dec_acc_mono s 0 H). lia. Qed.

Lemma list_max_ge l d x : In x l -> x <= list_max l d.
Proof. induction l as [|y r IH]; simpl; [tauto|]. intros [->|H]; [lia|]. specialize (IH H). lia. Qed.

Lemma list_min_le l d x : In x l -> list_min l d <= x.
Proof. induction l as [|y r IH]; simpl; [tauto|]. intros [->|H]; [lia|]. specialize (IH H). lia. Qed.

Lemma last_in (l : list Z) d : l <> [] -> In (last l d) l.
Proof.
  induction l as [|x r IH]; [congruence|]. intros _.
  destruct r as [|y r']; [left; reflexivity|]. right. apply IH. discriminate.
Qed.
