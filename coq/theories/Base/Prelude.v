(* Shared vocabulary of every model: bytes, strings, Go int64 wrap-around,
   three-valued results with an explicit Panic outcome, small list helpers.
   Definitions only are executable (vm_compute); the lemmas here are the
   generic facts later proofs rely on. *)
From Coq Require Export List ZArith Bool Lia.
Export ListNotations.
Open Scope Z_scope.

(* A byte is a Z in [0,255]; a Go string is a list of bytes. *)
Definition byte := Z.
Definition str := list Z.

(* Outcome of a Go function that can return a value, return an error, or panic. *)
Inductive res (A : Type) : Type :=
| Ok (a : A)
| Err
| Panic.
Arguments Ok {A} a.
Arguments Err {A}.
Arguments Panic {A}.

Definition res_bind {A B} (r : res A) (f : A -> res B) : res B :=
  match r with Ok a => f a | Err => Err | Panic => Panic end.

Definition is_panic {A} (r : res A) : bool :=
  match r with Panic => true | _ => false end.

(* Go int64 *)
Definition min_int64 : Z := - 2^63.
Definition max_int64 : Z := 2^63 - 1.
Definition wrap64 (z : Z) : Z := (z + 2^63) mod 2^64 - 2^63.
Definition in_int64 (z : Z) : bool := (min_int64 <=? z) && (z <=? max_int64).

Lemma wrap64_id z : min_int64 <= z <= max_int64 -> wrap64 z = z.
Proof.
  unfold wrap64, min_int64, max_int64. intros H.
  rewrite Z.mod_small; lia.
Qed.

(* wrap64_id with min_int64 written as - max_int64 - 1, so that lia needs no value of either *)
Lemma wrap64_small z : - max_int64 - 1 <= z <= max_int64 -> wrap64 z = z.
Proof. exact (wrap64_id z). Qed.

Lemma wrap64_range z : min_int64 <= wrap64 z <= max_int64.
Proof.
  unfold wrap64, min_int64, max_int64.
  pose proof (Z.mod_pos_bound (z + 2^63) (2^64) ltac:(lia)). lia.
Qed.

(* Byte-string equality *)
Fixpoint str_eqb (a b : str) : bool :=
  match a, b with
  | [], [] => true
  | x :: a', y :: b' => (x =? y) && str_eqb a' b'
  | _, _ => false
  end.

Lemma str_eqb_eq a b : str_eqb a b = true <-> a = b.
Proof.
  revert b; induction a as [|x a IH]; intros [|y b]; simpl; split; intros H;
    try reflexivity; try discriminate.
  - apply andb_true_iff in H as [H1 H2]. apply Z.eqb_eq in H1. apply IH in H2. congruence.
  - inversion H; subst. rewrite Z.eqb_refl. simpl. apply IH. reflexivity.
Qed.

Lemma str_eqb_refl a : str_eqb a a = true.
Proof. apply str_eqb_eq. reflexivity. Qed.

Lemma str_eqb_neq a b : str_eqb a b = false <-> a <> b.
Proof.
  split; intros H.
  - intros ->. rewrite str_eqb_refl in H. discriminate.
  - destruct (str_eqb a b) eqn:E; [|reflexivity]. apply str_eqb_eq in E. contradiction.
Qed.

Lemma str_eqb_spec a b : reflect (a = b) (str_eqb a b).
Proof. apply iff_reflect. symmetry. apply str_eqb_eq. Qed.

(* Generic boolean helpers over lists *)
Fixpoint list_eqb {A} (eqb : A -> A -> bool) (a b : list A) : bool :=
  match a, b with
  | [], [] => true
  | x :: a', y :: b' => eqb x y && list_eqb eqb a' b'
  | _, _ => false
  end.

Definition opt_eqb {A} (eqb : A -> A -> bool) (a b : option A) : bool :=
  match a, b with
  | None, None => true
  | Some x, Some y => eqb x y
  | _, _ => false
  end.

Definition pair_eqb {A B} (ea : A -> A -> bool) (eb : B -> B -> bool) (a b : A * B) : bool :=
  ea (fst a) (fst b) && eb (snd a) (snd b).

Definition res_eqb {A} (eqb : A -> A -> bool) (a b : res A) : bool :=
  match a, b with
  | Ok x, Ok y => eqb x y
  | Err, Err => true
  | Panic, Panic => true
  | _, _ => false
  end.

Definition zz_eqb : Z * Z -> Z * Z -> bool := pair_eqb Z.eqb Z.eqb.

(* ASCII classes *)
Definition is_digit (c : Z) : bool := (48 <=? c) && (c <=? 57).
Definition is_upper (c : Z) : bool := (65 <=? c) && (c <=? 90).
Definition is_lower (c : Z) : bool := (97 <=? c) && (c <=? 122).
Definition to_lower (c : Z) : Z := if is_upper c then c + 32 else c.
Definition to_upper (c : Z) : Z := if is_lower c then c - 32 else c.
Definition lower_str (s : str) : str := map to_lower s.

(* Value of a decimal digit string as an unbounded integer. *)
Fixpoint dec_acc (acc : Z) (s : str) : Z :=
  match s with
  | [] => acc
  | c :: r => dec_acc (acc * 10 + (c - 48)) r
  end.
Definition dec_value (s : str) : Z := dec_acc 0 s.

Definition all_digits (s : str) : bool := forallb is_digit s.

(* Index bookkeeping for case files: indices are Z, starting at 0. *)
Fixpoint filter_idx {A} (p : A -> bool) (i : Z) (l : list A) : list Z :=
  match l with
  | [] => []
  | x :: r => if p x then i :: filter_idx p (i + 1) r else filter_idx p (i + 1) r
  end.

(* Tag histogram: count occurrences of small integer tags. *)
Fixpoint bump (t : Z) (h : list (Z * Z)) : list (Z * Z) :=
  match h with
  | [] => [(t, 1)]
  | (t', n) :: r => if t =? t' then (t', n + 1) :: r else (t', n) :: bump t r
  end.
Definition histogram (l : list Z) : list (Z * Z) := fold_left (fun h t => bump t h) l [].

(* Report produced by every case-file evaluation. *)
Record report := {
  rp_total : Z;
  rp_mismatch : list Z;   (* model <> implementation on the projected observables *)
  rp_propfail : list Z;   (* implementation observation violates the property's own checker *)
  rp_tags : list (Z * Z)  (* which model branches the cases reached *)
}.

Definition mk_report {A} (mism propf : A -> bool) (tag : A -> Z) (cases : list A) : report :=
  {| rp_total := Z.of_nat (length cases);
     rp_mismatch := filter_idx mism 0 cases;
     rp_propfail := filter_idx propf 0 cases;
     rp_tags := histogram (map tag cases) |}.

(* firstn/skipn on Z offsets, as Go slicing does on validated bounds *)
Definition zfirstn {A} (n : Z) (l : list A) : list A := firstn (Z.to_nat n) l.
Definition zskipn {A} (n : Z) (l : list A) : list A := skipn (Z.to_nat n) l.
Definition zlen {A} (l : list A) : Z := Z.of_nat (length l).

Lemma zlen_cons {A} (x : A) l : zlen (x :: l) = zlen l + 1.
Proof. unfold zlen. cbn [length]. lia. Qed.

Lemma zlen_app {A} (a b : list A) : zlen (a ++ b) = zlen a + zlen b.
Proof. unfold zlen. rewrite app_length. lia. Qed.

Lemma zlen_nonneg {A} (l : list A) : 0 <= zlen l.
Proof. unfold zlen. lia. Qed.

Lemma nonempty_zlen {A} (l : list A) : l <> [] -> 1 <= zlen l.
Proof. destruct l; [contradiction|]. rewrite zlen_cons. pose proof (zlen_nonneg l). lia. Qed.

Lemma zlen_skipn {A} (l : list A) i : 0 <= i <= zlen l -> zlen (zskipn i l) = zlen l - i.
Proof. unfold zlen, zskipn. intros H. rewrite skipn_length. lia. Qed.

Lemma zskipn_app_cons {A} (d : list A) c t : zskipn (zlen d + 1) (d ++ c :: t) = t.
Proof.
  unfold zskipn, zlen. change (d ++ c :: t) with (d ++ [c] ++ t).
  replace (Z.to_nat _) with (length (d ++ [c])) by (rewrite app_length; cbn [length]; lia).
  rewrite app_assoc, skipn_app, skipn_all, Nat.sub_diag. reflexivity.
Qed.

Lemma is_digit_range c : is_digit c = true <-> 48 <= c <= 57.
Proof. unfold is_digit. rewrite andb_true_iff, !Z.leb_le. reflexivity. Qed.

Lemma is_upper_range c : is_upper c = true <-> 65 <= c <= 90.
Proof. unfold is_upper. rewrite andb_true_iff, !Z.leb_le. reflexivity. Qed.

Lemma is_lower_range c : is_lower c = true <-> 97 <= c <= 122.
Proof. unfold is_lower. rewrite andb_true_iff, !Z.leb_le. reflexivity. Qed.

(* decide the ASCII class tests in sight, leaving their bounds in the context *)
Ltac ascii_cases :=
  repeat match goal with
         | |- context [is_upper ?c] =>
             let E := fresh in destruct (is_upper c) eqn:E;
             [apply is_upper_range in E|apply not_true_iff_false in E; rewrite is_upper_range in E]
         | |- context [is_lower ?c] =>
             let E := fresh in destruct (is_lower c) eqn:E;
             [apply is_lower_range in E|apply not_true_iff_false in E; rewrite is_lower_range in E]
         end.

Lemma to_lower_upper c : to_lower (to_upper c) = to_lower c.
Proof. unfold to_lower, to_upper. ascii_cases; lia. Qed.

Lemma to_lower_idem c : to_lower (to_lower c) = to_lower c.
Proof. unfold to_lower. ascii_cases; lia. Qed.

Lemma to_upper_lower c : to_upper (to_lower c) = to_upper c.
Proof. unfold to_lower, to_upper. ascii_cases; lia. Qed.

Lemma list_eqb_eq {A} (eqb : A -> A -> bool) :
  (forall x y, eqb x y = true <-> x = y) -> forall a b, list_eqb eqb a b = true <-> a = b.
Proof.
  intros E. induction a as [|x a IH]; intros [|y b]; cbn; try (split; (reflexivity || discriminate)).
  rewrite andb_true_iff, E, IH. split; [intros [-> ->]; reflexivity|intros [= -> ->]; auto].
Qed.

Lemma nth_error_ext {A} (l1 l2 : list A) : (forall j, nth_error l1 j = nth_error l2 j) -> l1 = l2.
Proof.
  revert l2. induction l1 as [|x l1 IH]; intros [|y l2] H; try reflexivity; try discriminate (H O).
  f_equal; [injection (H O); auto|apply IH; intros j; exact (H (S j))].
Qed.

Lemma forallb_rev {A} (p : A -> bool) l : forallb p (rev l) = forallb p l.
Proof.
  induction l as [|x l IH]; [reflexivity|]. cbn [rev forallb].
  rewrite forallb_app, IH. cbn [forallb]. rewrite andb_true_r. apply andb_comm.
Qed.

Lemma forallb_ext_in {A} (f g : A -> bool) l : (forall x, In x l -> f x = g x) -> forallb f l = forallb g l.
Proof.
  induction l as [|x l IH]; intros H; [reflexivity|]. cbn [forallb].
  rewrite (H x), IH; [reflexivity|intros y Hy; apply H; right; exact Hy|left; reflexivity].
Qed.

Lemma NoDup_app_intro {A} (l1 l2 : list A) :
  NoDup l1 -> NoDup l2 -> (forall x, In x l1 -> In x l2 -> False) -> NoDup (l1 ++ l2).
Proof.
  induction l1 as [|x l1 IH]; intros H1 H2 H; [exact H2|].
  inversion H1; subst. cbn. constructor.
  - rewrite in_app_iff. intros [Hin|Hin]; [contradiction|]. apply (H x); [left; reflexivity|assumption].
  - apply IH; auto. intros y Hy. apply H. right. exact Hy.
Qed.

Lemma app_same_length {A} (a b x y : list A) :
  length a = length b -> a ++ x = b ++ y -> a = b /\ x = y.
Proof.
  revert b. induction a as [|c a IH]; intros [|d b] L H; simpl in *; try discriminate.
  - auto.
  - injection H as -> H. destruct (IH b) as [-> ->]; auto.
Qed.

Lemma nth_firstn_lt {A} (l : list A) : forall n i d, (i < n)%nat -> nth i (firstn n l) d = nth i l d.
Proof.
  induction l as [|x l IH]; intros n i d H.
  - rewrite firstn_nil. reflexivity.
  - destruct n; [lia|]. destruct i; [reflexivity|]. cbn [firstn nth]. apply IH. lia.
Qed.

Lemma nth_skipn_add {A} (l : list A) : forall n i d, nth i (skipn n l) d = nth (n + i) l d.
Proof.
  induction l as [|x l IH]; intros n i d.
  - rewrite skipn_nil. destruct i, n; reflexivity.
  - destruct n; [reflexivity|]. cbn [skipn plus nth]. apply IH.
Qed.

Lemma firstn_add {A} n k (l : list A) : firstn (n + k) l = firstn n l ++ firstn k (skipn n l).
Proof.
  revert l. induction n as [|n IH]; intros [|x l]; cbn [Nat.add firstn skipn app]; try reflexivity.
  - rewrite firstn_nil. reflexivity.
  - f_equal. apply IH.
Qed.

Lemma zskipn_add {A} (a c : Z) (l : list A) : 0 <= a -> 0 <= c -> zskipn (a + c) l = zskipn c (zskipn a l).
Proof.
  intros Ha Hc. unfold zskipn. rewrite Z2Nat.inj_add by assumption.
  revert l. induction (Z.to_nat a) as [|n IH]; intros l; [reflexivity|].
  destruct l; cbn [Nat.add skipn]; [destruct (Z.to_nat c); reflexivity|apply IH].
Qed.

Lemma zskipn_zfirstn {A} n (l : list A) : zskipn (zlen (zfirstn n l)) l = zskipn n l.
Proof.
  unfold zskipn, zfirstn, zlen. rewrite Nat2Z.id.
  revert l. induction (Z.to_nat n) as [|m IH]; intros [|x l]; cbn [firstn length skipn]; auto.
Qed.

Lemma zfirstn_add {A} n m (l : list A) :
  0 <= m -> zfirstn (Z.max 0 n + m) l = zfirstn n l ++ zfirstn m (zskipn n l).
Proof.
  intros Hm. unfold zfirstn, zskipn. rewrite <- firstn_add, Z2Nat.inj_add by (assumption || apply Z.le_max_l).
  destruct n; reflexivity.
Qed.
