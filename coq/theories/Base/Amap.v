(* Association lists keyed by Z, used as finite maps by the Store model
   (entries, directory, inode table, handle table).  [aset] replaces in place
   or appends, [adel] removes every binding of the key; lookups see the first. *)
From Reservoir Require Import Base.Prelude.

Section Amap.
  Context {V : Type}.

  Fixpoint aget (k : Z) (m : list (Z * V)) : option V :=
    match m with
    | [] => None
    | (k', v) :: r => if k =? k' then Some v else aget k r
    end.

  Fixpoint aset (k : Z) (v : V) (m : list (Z * V)) : list (Z * V) :=
    match m with
    | [] => [(k, v)]
    | (k', v') :: r => if k =? k' then (k, v) :: r else (k', v') :: aset k v r
    end.

  Fixpoint adel (k : Z) (m : list (Z * V)) : list (Z * V) :=
    match m with
    | [] => []
    | (k', v') :: r => if k =? k' then adel k r else (k', v') :: adel k r
    end.

  Definition ahas (k : Z) (m : list (Z * V)) : bool :=
    match aget k m with Some _ => true | None => false end.

  Definition akeys (m : list (Z * V)) : list Z := map fst m.

  (* sum of a measure over the bindings *)
  Fixpoint asum (f : V -> Z) (m : list (Z * V)) : Z :=
    match m with
    | [] => 0
    | (_, v) :: r => f v + asum f r
    end.

  Lemma aget_aset k k2 v m : aget k2 (aset k v m) = if k2 =? k then Some v else aget k2 m.
  Proof.
    induction m as [|[k' v'] r IH]; simpl; [reflexivity|].
    destruct (Z.eqb_spec k k') as [<-|N]; simpl.
    - destruct (k2 =? k); reflexivity.
    - rewrite IH. destruct (Z.eqb_spec k2 k'), (Z.eqb_spec k2 k); congruence.
  Qed.

  Lemma aget_adel k k2 m : aget k2 (adel k m) = if k2 =? k then None else aget k2 m.
  Proof.
    induction m as [|[k' v'] r IH]; simpl; [destruct (k2 =? k); reflexivity|].
    destruct (Z.eqb_spec k k') as [<-|N]; simpl; rewrite IH.
    - destruct (k2 =? k); reflexivity.
    - destruct (Z.eqb_spec k2 k'), (Z.eqb_spec k2 k); congruence.
  Qed.

  Lemma aget_aset_eq k v m : aget k (aset k v m) = Some v.
  Proof. rewrite aget_aset, Z.eqb_refl. reflexivity. Qed.

  Lemma aget_aset_neq k k2 v m : k2 <> k -> aget k2 (aset k v m) = aget k2 m.
  Proof. intros N. apply Z.eqb_neq in N. rewrite aget_aset, N. reflexivity. Qed.

  Lemma aget_adel_eq k m : aget k (adel k m) = None.
  Proof. rewrite aget_adel, Z.eqb_refl. reflexivity. Qed.

  Lemma aget_adel_neq k k2 m : k2 <> k -> aget k2 (adel k m) = aget k2 m.
  Proof. intros N. apply Z.eqb_neq in N. rewrite aget_adel, N. reflexivity. Qed.

  Lemma aget_In k v m : aget k m = Some v -> In (k, v) m.
  Proof.
    induction m as [|[k' v'] r IH]; simpl; [discriminate|].
    destruct (k =? k') eqn:E; intros H.
    - apply Z.eqb_eq in E. inversion H; subst. auto.
    - right. auto.
  Qed.

  Lemma aget_None_notin k m : aget k m = None -> ~ In k (akeys m).
  Proof.
    induction m as [|[k' v'] r IH]; simpl; [tauto|].
    destruct (k =? k') eqn:E; [discriminate|].
    apply Z.eqb_neq in E. intros H [H1|H1]; [congruence|]. apply IH; auto.
  Qed.

  Lemma notin_aget_None k m : ~ In k (akeys m) -> aget k m = None.
  Proof.
    induction m as [|[k' v'] r IH]; simpl; [auto|].
    intros H. destruct (k =? k') eqn:E.
    - apply Z.eqb_eq in E. subst. tauto.
    - apply IH. tauto.
  Qed.

  Lemma In_aget k v m : NoDup (akeys m) -> In (k, v) m -> aget k m = Some v.
  Proof.
    induction m as [|[k' v'] r IH]; simpl; [tauto|].
    intros ND [H|H].
    - inversion H; subst. rewrite Z.eqb_refl. reflexivity.
    - inversion ND as [|? ? NI ND']; subst.
      destruct (k =? k') eqn:E.
      + apply Z.eqb_eq in E. subst. exfalso. apply NI.
        change (In (fst (k', v)) (map fst r)). apply in_map. exact H.
      + auto.
  Qed.

  Lemma akeys_aset_in k v m x : In x (akeys (aset k v m)) <-> x = k \/ In x (akeys m).
  Proof.
    induction m as [|[k' v'] r IH]; simpl.
    - intuition.
    - destruct (k =? k') eqn:E; simpl.
      + apply Z.eqb_eq in E. subst. intuition.
      + rewrite IH. intuition.
  Qed.

  Lemma akeys_adel_in k m x : In x (akeys (adel k m)) <-> x <> k /\ In x (akeys m).
  Proof.
    induction m as [|[k' v'] r IH]; simpl.
    - intuition.
    - destruct (k =? k') eqn:E; simpl.
      + apply Z.eqb_eq in E. subst. rewrite IH. intuition congruence.
      + apply Z.eqb_neq in E. rewrite IH. intuition congruence.
  Qed.

  Lemma NoDup_aset k v m : NoDup (akeys m) -> NoDup (akeys (aset k v m)).
  Proof.
    induction m as [|[k' v'] r IH]; simpl; intros ND.
    - constructor; [simpl; tauto|constructor].
    - inversion ND as [|? ? NI ND']; subst.
      destruct (k =? k') eqn:E; simpl.
      + apply Z.eqb_eq in E. subst. constructor; auto.
      + apply Z.eqb_neq in E. constructor; auto.
        intros H. apply akeys_aset_in in H. destruct H; [congruence|contradiction].
  Qed.

  Lemma NoDup_adel k m : NoDup (akeys m) -> NoDup (akeys (adel k m)).
  Proof.
    induction m as [|[k' v'] r IH]; simpl; intros ND; [constructor|].
    inversion ND as [|? ? NI ND']; subst.
    destruct (k =? k') eqn:E; simpl; auto.
    constructor; auto. intros H. apply akeys_adel_in in H. tauto.
  Qed.

  Lemma adel_notin k m : aget k m = None -> adel k m = m.
  Proof.
    induction m as [|[k' v'] r IH]; simpl; auto.
    destruct (k =? k') eqn:E; [discriminate|]. intros H. f_equal. auto.
  Qed.

  (* sums and lengths under update, for maps without duplicate keys *)
  Definition oget (f : V -> Z) (o : option V) : Z := match o with Some v => f v | None => 0 end.
  Definition ocount (o : option V) : Z := match o with Some _ => 1 | None => 0 end.

  Lemma asum_adel f k m : NoDup (akeys m) -> asum f (adel k m) = asum f m - oget f (aget k m).
  Proof.
    induction m as [|[k' v'] r IH]; simpl; intros ND; [lia|].
    inversion ND as [|? ? NI ND']; subst.
    destruct (k =? k') eqn:E; simpl.
    - apply Z.eqb_eq in E. subst. rewrite adel_notin by (apply notin_aget_None; auto). lia.
    - rewrite IH by auto. lia.
  Qed.

  Lemma asum_aset f k v m : NoDup (akeys m) -> asum f (aset k v m) = asum f m - oget f (aget k m) + f v.
  Proof.
    induction m as [|[k' v'] r IH]; simpl; intros ND; [lia|].
    inversion ND as [|? ? NI ND']; subst.
    destruct (k =? k') eqn:E; simpl.
    - lia.
    - rewrite IH by auto. lia.
  Qed.

  Lemma zlen_nil {A} : zlen (@nil A) = 0.
  Proof. reflexivity. Qed.

  Lemma zlen_asum m : zlen m = asum (fun _ => 1) m.
  Proof. induction m as [|[k v] r IH]; [reflexivity|]. rewrite zlen_cons, IH. cbn [asum]. lia. Qed.

  (* [ocount o] is [oget (fun _ => 1) o] up to conversion, so the laws of sums apply as they stand *)
  Lemma zlen_adel k m : NoDup (akeys m) -> zlen (adel k m) = zlen m - ocount (aget k m).
  Proof. intros ND. rewrite !zlen_asum. apply asum_adel, ND. Qed.

  Lemma zlen_aset k v m : NoDup (akeys m) -> zlen (aset k v m) = zlen m - ocount (aget k m) + 1.
  Proof. intros ND. rewrite !zlen_asum. apply asum_aset, ND. Qed.

  Lemma asum_nonneg f m : (forall k v, In (k, v) m -> 0 <= f v) -> 0 <= asum f m.
  Proof.
    induction m as [|[k' v'] r IH]; simpl; intros H; [lia|].
    pose proof (H k' v' (or_introl eq_refl)).
    assert (0 <= asum f r) by (apply IH; intros; eapply H; right; eauto). lia.
  Qed.

  Lemma asum_ext f g m : (forall k v, In (k, v) m -> f v = g v) -> asum f m = asum g m.
  Proof.
    induction m as [|[k' v'] r IH]; simpl; intros H; [lia|].
    rewrite (H k' v' (or_introl eq_refl)). rewrite IH; auto. intros; eapply H; right; eauto.
  Qed.
End Amap.
