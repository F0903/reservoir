(* The events a step function emits along a list of inputs, and induction over them.
   A model's own [run] / [events], written with the same clauses, are convertible to
   [trace_run step] / [trace step], so these lemmas apply to them as they stand. *)
From Reservoir Require Import Base.Prelude.

Section Trace.
  Context {State Input Event : Type} (step : State -> Input -> State * option Event).

  Fixpoint trace_run (s : State) (h : list Input) : list Event * State :=
    match h with
    | [] => ([], s)
    | x :: h' =>
        let '(s1, oev) := step s x in
        let '(evs, s2) := trace_run s1 h' in
        (match oev with Some ev => ev :: evs | None => evs end, s2)
    end.

  Definition trace (s : State) (h : list Input) : list Event := fst (trace_run s h).

  Lemma trace_cons s x h :
    trace s (x :: h) =
    match snd (step s x) with
    | Some ev => ev :: trace (fst (step s x)) h
    | None => trace (fst (step s x)) h
    end.
  Proof.
    unfold trace. simpl. destruct (step s x) as [s1 oev]. simpl.
    destruct (trace_run s1 h) as [evs s2]. destruct oev; reflexivity.
  Qed.

  (* [P] relates a state to the events before it and is kept by every step; then [Q] holds of
     every event in the context of the events before it *)
  Lemma trace_ind (P : State -> list Event -> Prop) (Q : list Event -> Event -> Prop) :
    (forall s past x, P s past ->
       match step s x with
       | (s', None) => P s' past
       | (s', Some ev) => Q past ev /\ P s' (past ++ [ev])
       end) ->
    forall h s past, P s past ->
    forall evs1 ev evs2, trace s h = evs1 ++ ev :: evs2 -> Q (past ++ evs1) ev.
  Proof.
    intros Hstep. induction h as [|x h IH]; intros s past HP evs1 ev evs2 Hev.
    - destruct evs1; discriminate.
    - rewrite trace_cons in Hev. specialize (Hstep s past x HP).
      destruct (step s x) as [s1 [ev0|]]; simpl in Hev.
      + destruct Hstep as [HQ HP1]. destruct evs1 as [|e1 evs1]; injection Hev as -> Hev.
        * rewrite app_nil_r. exact HQ.
        * specialize (IH _ _ HP1 _ _ _ Hev). rewrite <- app_assoc in IH. exact IH.
      + exact (IH _ _ Hstep _ _ _ Hev).
  Qed.
End Trace.
